(** Property C01: no in-contract sequence of API calls can crash the engine (model part).
    Every function of the model is total Gallina except the commit, which indexes the stored candidate
    list; the runtime clauses (time, abort) are observed by the harness (stream c01, watchdog). *)
Require Import Riti.model.Base Riti.model.Rank Riti.model.Layout Riti.model.Phonetic Riti.gen.Gen_Tables
        Riti.model.TestOracle Riti.proofs.Base_Proof Riti.proofs.TablesAgree Riti.proofs.C01_Proof.

(** For EVERY oracle, configuration, state and event: the phonetic step returns normally whenever a commit
    made while composing (with suggestions on) carries an index inside the stored list ... *)
Theorem C01_phonetic_step_total :
  forall (Q : oracles) c s e, commit_in_range c s e -> p_step Q c s e <> None.
Proof. exact p_step_total. Qed.

(** ... and the stored list is exactly the list the last key or backspace event returned, so "an index inside
    the most recently returned list" is in range. *)
Theorem C01_returned_list_is_stored_key :
  forall (Q : oracles) c s k selb aux l sel ansi,
    snd (p_key Q c s k selb) = OFull aux l sel ansi -> map rstr (p_sugg (fst (p_key Q c s k selb))) = l.
Proof.
  intros Q c s k selb aux l sel ansi. unfold p_key. destruct (keycode_to_char k) as [ch|].
  - pose proof (create_suggestion_stored Q c (set_buf s (p_buf s ++ [ch]))) as H.
    destruct (create_suggestion Q c _) as [s' [a l0 s0 an| |]]; try discriminate. cbn [fst snd] in *.
    intros X. rewrite (H a l0 s0 an eq_refl). destruct (mem ch echo_chars); injection X as _ <- _ _; reflexivity.
  - destruct (p_buf s); [discriminate | apply create_suggestion_stored].
Qed.
Theorem C01_returned_list_is_stored_backspace :
  forall (Q : oracles) c s ctrl aux l sel ansi,
    snd (p_backspace Q c s ctrl) = OFull aux l sel ansi -> map rstr (p_sugg (fst (p_backspace Q c s ctrl))) = l.
Proof.
  intros Q c s ctrl aux l sel ansi. unfold p_backspace. destruct (p_buf s); [discriminate|]. destruct ctrl; [discriminate|].
  destruct (removelast _) as [|y r]; [discriminate|].
  destruct (out_empty _); apply create_suggestion_stored.
Qed.

(** The composition holds ASCII characters only, in every state reached by any events (so that slicing it by
    bytes, as the code does, is slicing it by characters): from the key table generated by executing
    keycode_to_char over all 65536 codes. *)
Theorem C01_buffer_stays_ascii :
  forall (Q : oracles) c s e c' s' o, ascii (p_buf s) -> p_step Q c s e = Some (c', s', o) -> ascii (p_buf s').
Proof.
  intros Q c s e c' s' o Ha Hs. destruct (p_step_buf Q c s e c' s' o Hs) as [-> | (_ & _ & ->)]; [|constructor].
  destruct e as [k selb | [|] | i | | cc r]; cbn [compose_step]; try constructor; try exact Ha.
  - destruct (keycode_to_char k) as [ch|] eqn:Ek; [|exact Ha].
    apply Forall_app. split; [exact Ha | repeat constructor; eapply keychar_ascii, Ek].
  - eapply incl_Forall; [apply removelast_incl | exact Ha].
Qed.

(** The fixed method has no partial operation at all: [x_step] is a total function (its type says so).  The key
    table regenerated from the code is the one derived from the names of riti.h (which has no row for VC_KP_ENTER): *)
Theorem C01_published_keys_have_characters : gen_keychar = spec_keychar.
Proof. exact keychar_agree. Qed.

(** The out-of-contract commit (index outside the stored list) does panic in the model, as in the code
    (keys 41120, 41110: k, a). *)
Example C01_out_of_contract_commit_panics :
  p_run test_oracles cfg_all_on (p_new [] []) [PKey 41120 0; PKey 41110 0; PCommit 40] = None.
Proof. vm_compute. reflexivity. Qed.

Print Assumptions C01_phonetic_step_total.
Print Assumptions C01_returned_list_is_stored_key.
Print Assumptions C01_buffer_stays_ascii.
