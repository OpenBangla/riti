(** Property C15: fixed-layout suggestions are prefix completions of what was typed. *)
From Coq Require Import Lia Sorted.
Require Import Riti.model.Base Riti.model.Rank Riti.model.Phonetic Riti.model.FixedCompose
        Riti.model.FixedSuggest Riti.model.TestOracle Riti.proofs.Base_Proof Riti.proofs.Rank_Proof
        Riti.proofs.Fixed_Proof Riti.proofs.NoRepeat_Proof.

(** For EVERY dictionary, emoji table, option set, composed text and raw key text: *)
Theorem C15_first_is_composed_text :
  forall (Q : oracles) c buffer typed,
    hd (RLast [] 0) (dictionary_suggestion Q c buffer typed) = RFirst (ds_first c buffer ++ ds_word c buffer ++ ds_last c buffer).
Proof.
  intros Q c buffer typed. rewrite ds_eq. destruct (ds_sorted_head Q c buffer typed) as [r ->]. destruct (x_english_on c && _); reflexivity.
Qed.

(** every candidate is the composed text, a word of the first letter's dictionary table that begins with the typed
    word (punctuation and non-joiners removed by clean_string; non-joiners re-inserted for traditional joining),
    an emoji (only without ANSI), or the raw key text (only with English on and when it differs from the text) *)
Theorem C15_candidates_classified :
  forall (Q : oracles) c buffer typed, Forall (fixed_item Q c buffer typed) (dictionary_suggestion Q c buffer typed).
Proof. exact ds_items. Qed.

Theorem C15_at_most_nine : forall (Q : oracles) c buffer typed, (length (dictionary_suggestion Q c buffer typed) <= 9)%nat.
Proof.
  intros Q c buffer typed. rewrite ds_eq. destruct (x_english_on c && _); rewrite app_length, firstn_length; cbn [length]; lia.
Qed.

(** the candidates before the English item are sorted by the rank key: dictionary words by 10 x edit distance *)
Theorem C15_sorted :
  forall (Q : oracles) c buffer typed,
    let '(l, cut, _) := dictionary_suggestion_parts Q c buffer typed in StronglySorted key_le (firstn cut l).
Proof. intros Q c buffer typed. rewrite ds_parts_eq. destruct (x_english_on c && _); apply sorted_firstn, sort_sorted. Qed.

(** read position-wise: of two dictionary candidates the earlier one has the smaller (or equal) edit distance from the typed word *)
Theorem C15_non_decreasing_distance :
  forall (Q : oracles) c buffer typed i j a d1 b d2,
    let '(l, cut, _) := dictionary_suggestion_parts Q c buffer typed in
    (i < j)%nat -> nth_error (firstn cut l) i = Some (ROther a d1) -> nth_error (firstn cut l) j = Some (ROther b d2) -> d1 <= d2.
Proof.
  intros Q c buffer typed i j a d1 b d2. pose proof (C15_sorted Q c buffer typed) as S.
  destruct (dictionary_suggestion_parts Q c buffer typed) as [[l cut] tl]. intros Hij Hi Hj.
  pose proof (sorted_nth key_le _ i j _ _ S Hij Hi Hj) as K. unfold key_le in K. cbn in K. lia.
Qed.

Theorem C15_english_last :
  forall (Q : oracles) c buffer typed, x_english_on c = true -> str_eqb buffer typed = false ->
    last (dictionary_suggestion Q c buffer typed) (RFirst []) = RLast typed 1.
Proof. intros Q c buffer typed E1 E2. rewrite ds_eq, E1, E2. apply last_last. Qed.

(** "none repeats".  Vec::dedup removes neighbouring repeats only, so the clause rests on the data: whenever the texts the
    dictionary contributes for the word (the word itself, then the matching slice of its table, in table order) have
    their repeats next to each other, and the emoji of the word / of the raw keys are not among those texts [data_ok],
    no text occurs twice before the raw English item - for EVERY dictionary, option set and composition.  The proviso is
    checked on every list by the stream (data-exhaustively in the thorough tier); dictionary.json lists one word twice. *)
Theorem C15_no_repeats :
  forall (Q : oracles) c buffer typed, data_ok Q c buffer typed ->
    let '(l, cut, _) := dictionary_suggestion_parts Q c buffer typed in NoDup (map rstr (firstn cut l)).
Proof. intros Q c buffer typed H. rewrite ds_parts_eq. destruct (x_english_on c && _); apply ds_cut_nodup, H. Qed.

(** the raw English item is only added when it differs from the composed text; the whole list is repeat-free as soon
    as the raw text is not one of the other candidates *)
Theorem C15_no_repeats_whole_list :
  forall (Q : oracles) c buffer typed, data_ok Q c buffer typed ->
    (let '(l, cut, _) := dictionary_suggestion_parts Q c buffer typed in ~ In typed (map rstr (firstn cut l))) ->
    NoDup (map rstr (dictionary_suggestion Q c buffer typed)).
Proof.
  intros Q c buffer typed H T. rewrite ds_eq. rewrite ds_parts_eq in T. destruct (x_english_on c && _).
  - rewrite map_app. apply NoDup_snoc; [apply ds_cut_nodup, H | exact T].
  - rewrite app_nil_r. apply ds_cut_nodup, H.
Qed.

(** the proviso on the slice holds in particular when the slice has no repeat at all; without any proviso the clause is
    false of the code: a table that lists a word twice with another match in between yields a repeated candidate *)
Theorem C15_repeat_free_slice_suffices : forall l, NoDup l -> repeats_adjacent l.
Proof.
  intros l N a x m b E. subst l. apply NoDup_remove_2 in N. exfalso. apply N. rewrite !in_app_iff. right. right. left. reflexivity.
Qed.

Definition repeating_dict : oracles :=
  {| conv := conv test_oracles; hits := hits test_oracles; edist := fun _ _ => 0; ac_sys := ac_sys test_oracles; suffix_of := suffix_of test_oracles;
     emoticon := fun _ => None; emoji_name := fun _ => None; dict := fun _ _ => [[0x995; 0x9BE; 0x995]; [0x995; 0x9BE; 0x9B2]; [0x995; 0x9BE; 0x995]];
     emoji_bn := fun _ => None; bijoy := fun s => s |}.
Example C15_no_repeats_needs_the_proviso :
  map rstr (dictionary_suggestion repeating_dict {| x_opts := {| o_vowel := false; o_chandra := false; o_kar := false; o_old_reph := false; o_kar_order := false |};
      x_numpad := false; x_suggest := true; x_english := false; x_ansi := false; x_smart := false |} [0x995; 0x9BE] [107; 97])
  = [[0x995; 0x9BE]; [0x995; 0x9BE; 0x995]; [0x995; 0x9BE; 0x9B2]; [0x995; 0x9BE; 0x995]].
Proof. vm_compute. reflexivity. Qed.

(** the proviso is satisfiable: it holds for the composition of the example below *)
Example C15_data_ok_somewhere :
  data_ok test_oracles {| x_opts := {| o_vowel := false; o_chandra := false; o_kar := false; o_old_reph := false; o_kar_order := false |};
      x_numpad := false; x_suggest := true; x_english := true; x_ansi := false; x_smart := true |} [34; 0x995; 0x9BE] [34; 107; 97].
Proof.
  constructor.
  - (* the slice is [ka; ka; kak]: the typed word is itself a dictionary word and comes first in its table *)
    change (repeats_adjacent [[0x995; 0x9BE]; [0x995; 0x9BE]; [0x995; 0x9BE; 0x995]]).
    apply adjacent_twice, C15_repeat_free_slice_suffices. constructor; [intros [E|[]]; discriminate E | repeat constructor; intros []].
  - intros e H. discriminate H.
  - intros es H. vm_compute in H. injection H as <-. split; [repeat constructor; intros []|].
    intros e [<-|[]]. vm_compute. intros [E|[E|[E|[]]]]; discriminate E.
Qed.

Example C15_nonvacuous :
  map rstr (dictionary_suggestion test_oracles {| x_opts := {| o_vowel := false; o_chandra := false; o_kar := false; o_old_reph := false; o_kar_order := false |};
      x_numpad := false; x_suggest := true; x_english := true; x_ansi := false; x_smart := true |} [34; 0x995; 0x9BE] [34; 107; 97])
  = [[0x201C; 0x995; 0x9BE]; [0x201C; 0x1F426]; [0x201C; 0x995; 0x9BE; 0x995]; [34; 107; 97]].
Proof. vm_compute. reflexivity. Qed.

Print Assumptions C15_first_is_composed_text.
Print Assumptions C15_candidates_classified.
Print Assumptions C15_sorted.
Print Assumptions C15_non_decreasing_distance.
Print Assumptions C15_no_repeats.
Print Assumptions C15_no_repeats_whole_list.
