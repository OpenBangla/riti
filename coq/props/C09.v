(** Property C09: a learned candidate choice is remembered, also after a restart. *)
From Coq Require Import Lia.
Require Import Riti.model.Base Riti.model.Split Riti.model.Rank Riti.model.Phonetic Riti.model.Context
        Riti.model.TestOracle Riti.proofs.C09_Proof.

(** A learning commit (an index other than the preselected one, while composing, suggestions on) stores
    word part -> candidate text without its wrapping punctuation, rewrites the file and ends the word;
    every other entry of the store is untouched.  For EVERY state, index and candidate that carries its affixes. *)
Theorem C09_commit_learns :
  forall c s i x (b : str), c_suggest c = true -> p_buf s <> [] -> p_prev s <> i ->
    nth_error (p_sugg s) i = Some x -> rstr x = fst (p_affix s) ++ b ++ snd (p_affix s) ->
    exists s', p_commit c s i = Some (s', true) /\ p_buf s' = [] /\ p_uac s' = p_uac s /\
      assocS (sp_word (split (p_buf s) false)) (p_sels s') = Some b /\
      (forall k, str_eqb k (sp_word (split (p_buf s) false)) = false -> assocS k (p_sels s') = assocS k (p_sels s)).
Proof. exact commit_learns. Qed.

(** With an entry for the word part, the preselected candidate of ANY list for ANY wrapping is the learned text in
    that wrapping, whenever it is offered (and by C05 the same text always yields the same list). *)
Theorem C09_learned_is_preselected :
  forall (Q : oracles) (sels : list (str * str)) l (pre w tr b : str),
    assocS w sels = Some b -> (exists x, In x l /\ rstr x = pre ++ b ++ tr) ->
    option_map rstr (nth_error l (prev_selection Q sels l pre w tr)) = Some (pre ++ b ++ tr).
Proof. exact learned_is_preselected. Qed.

(** Word + known suffix without an entry of its own: the joined text of the first split (shortest suffix) that has a
    learned base is preselected when offered. *)
Theorem C09_suffix_of_learned_word :
  forall (Q : oracles) (sels : list (str * str)) l (pre w tr sel : str),
    assocS w sels = None -> (2 <= length w)%nat -> sel_by_suffix Q sels w (seq 1 (length w - 1)) = sel ->
    (exists x, In x l /\ rstr x = pre ++ sel ++ tr) ->
    option_map rstr (nth_error l (prev_selection Q sels l pre w tr)) = Some (pre ++ sel ++ tr).
Proof.
  intros Q sels l pre w tr sel Hw Hl Hsel (x & Hin & Hx). pose proof (preselected_when_offered Q sels l pre w tr) as H.
  apply PeanoNat.Nat.leb_le in Hl. rewrite Hw, Hl, Hsel in H. apply H. rewrite <- Hx. apply in_map, Hin.
Qed.

(** ... and which split that is: reading the remainders from the shortest on (one letter, two, ...), i.e. the bases from the
    longest on, the first base with a learned choice whose remainder is a known suffix decides.  A shorter learned base is
    only consulted when no longer one fits - for EVERY store, word and suffix table. *)
Theorem C09_longest_learned_base_decides :
  forall (Q : oracles) (sels : list (str * str)) (w : str) (i : nat) (suf base : str),
    (1 <= i <= length w - 1)%nat ->
    suffix_of Q (skipn (length w - i) w) = Some suf -> assocS (firstn (length w - i) w) sels = Some base ->
    (forall j, (1 <= j < i)%nat -> suffix_of Q (skipn (length w - j) w) = None \/ assocS (firstn (length w - j) w) sels = None) ->
    sel_by_suffix Q sels w (seq 1 (length w - 1)) = join base suf.
Proof.
  intros Q sels w i suf base Hi Hs Hb Hsmaller.
  replace (length w - 1)%nat with ((i - 1) + S (length w - 1 - i))%nat by lia.
  rewrite seq_app, sel_by_suffix_skip by (intros j Hj; apply in_seq in Hj; apply Hsmaller; lia).
  replace (1 + (i - 1))%nat with i by lia. cbn [seq sel_by_suffix]. rewrite Hs, Hb. reflexivity.
Qed.

(** Committing the preselected candidate learns nothing and writes nothing: it only ends the word. *)
Theorem C09_preselected_commit_is_noop : forall c s, p_commit c s (p_prev s) = Some (set_buf s [], false).
Proof. intros c s. unfold p_commit. rewrite PeanoNat.Nat.eqb_refl. reflexivity. Qed.

(** A commit leaves the file equal to the in-memory map, or both untouched (when the directory is writable); a restart
    loads exactly the file. *)
Theorem C09_file_is_store :
  forall c fs s i s' fs', f_dir_writable fs = true -> ctx_commit c fs s i = Some (s', fs') ->
    (f_sels fs' = FMap (p_sels s') /\ load (f_sels fs') = p_sels s') \/ (fs' = fs /\ p_sels s' = p_sels s).
Proof.
  intros c fs s i s' fs' Hw H. unfold ctx_commit in H.
  destruct (p_commit c s i) as [[s1 [|]]|] eqn:E; [| |discriminate]; injection H as <- <-.
  - left. rewrite Hw. split; reflexivity.
  - right. split; [reflexivity|]. unfold p_commit in E.
    destruct (negb _ && _ && _); [destruct (bare_suggestion s i); discriminate | injection E as <-; reflexivity].
Qed.
Theorem C09_restart_loads_store : forall fs m, f_sels fs = FMap m -> p_sels (ctx_new fs) = m.
Proof. intros fs m H. cbn. rewrite H. reflexivity. Qed.

(** Non-vacuity: k, a, commit of candidate 3, k, a again: the choice is stored under "ka" and preselected. *)
Example C09_nonvacuous :
  match p_run test_oracles cfg_all_on (p_new [] []) [PKey 41120 0; PKey 41110 0; PCommit 3; PKey 41120 0; PKey 41110 0] with
  | Some (_, s, outs) => p_sels s = [([107; 97], [2453; 2494])] /\ (match last outs (OUnit, false) with (OFull _ l sel _, _) => nth_error l sel | _ => None end) = Some [2453; 2494]
  | None => False
  end.
Proof. vm_compute. split; reflexivity. Qed.

Print Assumptions C09_commit_learns.
Print Assumptions C09_learned_is_preselected.
Print Assumptions C09_suffix_of_learned_word.
Print Assumptions C09_longest_learned_base_decides.
