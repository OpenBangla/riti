(** Property C02: every returned suggestion is self-consistent and fully retrievable. *)
Require Import Riti.model.Base Riti.model.Layout Riti.model.Phonetic Riti.model.FixedCompose
        Riti.model.FixedSuggest Riti.model.TestOracle Riti.proofs.Phonetic_Proof Riti.proofs.C01_Proof
        Riti.proofs.Fixed_Proof Riti.proofs.C02_Proof.

(** Phonetic method, for EVERY oracle (any transliteration, dictionary, emoji tables), configuration, state,
    key and selection byte: a list-style suggestion holds at least one candidate, its auxiliary text is
    exactly the composition (the buffer after the key), and its previously-selected index is below its
    length - unless the key is one of the 13 punctuation keys, where the caller's byte is echoed
    (class echo-out-of-range of KNOWN_FINDINGS.txt when that byte is not below the new length). *)
Theorem C02_phonetic_key :
  forall (Q : oracles) (c : pcfg) (s : pstate) (k selb : N),
    let r := p_key Q c s k selb in
    full_ok (p_buf (fst r))
            (match keycode_to_char k with Some ch => if mem ch echo_chars then Some (N.to_nat selb) else None | None => None end)
            (snd r)
    /\ p_buf (fst r) = match keycode_to_char k with Some ch => p_buf s ++ [ch] | None => p_buf s end.
Proof.
  intros Q c s k selb. split; [|apply p_key_buf]. rewrite p_key_buf. unfold p_key, compose_step.
  destruct (keycode_to_char k) as [ch|].
  - pose proof (create_suggestion_ok Q c (set_buf s (p_buf s ++ [ch]))) as Hf.
    destruct (create_suggestion Q c _) as [s' [aux l sel ansi| |]]; try exact Hf.
    destruct (mem ch echo_chars); [|exact Hf]. cbn [snd full_ok] in *. destruct Hf as (Hl & Ha & _). auto.
  - destruct (p_buf s) eqn:Eb; [exact I|]. rewrite <- Eb. apply create_suggestion_ok.
Qed.

Theorem C02_phonetic_backspace :
  forall (Q : oracles) (c : pcfg) (s : pstate) (ctrl : bool),
    let r := p_backspace Q c s ctrl in full_ok (p_buf (fst r)) None (snd r).
Proof.
  intros Q c s ctrl. unfold p_backspace. destruct (p_buf s); [exact I|]. destruct ctrl; [exact I|].
  destruct (removelast _) as [|y r]; [exact I|].
  pose proof (create_suggestion_ok Q c (set_buf s (y :: r))) as Hf.
  destruct (out_empty _) eqn:Eo; cbn [fst snd]; [|rewrite create_suggestion_buf; exact Hf].
  destruct (snd (create_suggestion Q c _)) as [aux [|] sel ansi| |]; try discriminate; [elim (proj1 Hf); reflexivity | exact I].
Qed.

(** ... where the composition is the raw typed text that survives: a function of the events alone (characters of the
    keys appended, one removed per backspace, emptied by ctrl-backspace, commit and finish), for every state - except that a
    backspace returning an EMPTY suggestion (what is left displays as nothing) empties it, so an empty suggestion always
    means the word is gone. *)
Theorem C02_composition_is_surviving_text :
  forall (Q : oracles) c s e c' s' o, p_step Q c s e = Some (c', s', o) ->
    p_buf s' = compose_step (p_buf s) e \/ (e = PBackspace false /\ out_empty o = true /\ p_buf s' = []).
Proof. exact p_step_buf. Qed.

(** Fixed method: the candidate list is never empty, the auxiliary text is the composed text, the index is 0 < length;
    [x_inv] (the stored list is non-empty whenever it can be shown again) is an invariant of every event. *)
Theorem C02_fixed_key :
  forall (Q : oracles) L c s k m, x_inv c s ->
    let r := x_key Q L c s k m in xfull_ok (x_buffer (fst r)) (snd r) /\ x_inv c (fst r).
Proof.
  intros Q L c s k m Hi. unfold x_key. destruct (get_char_for_key L k (altgr_of m) (x_numpad c)) as [v|].
  - destruct (process_key_value _ _ _ v) as [rb p]. apply x_create_ok.
  - cbn [fst snd]. split; [|exact Hi]. unfold x_current. destruct (x_rb s) eqn:Er; [exact I|].
    destruct (x_suggest c) eqn:Hs; [|exact I]. destruct Hi as [H|[H|H]]; try congruence.
    cbn [xfull_ok]. destruct (x_sugg s); [congruence|]. repeat split; [discriminate | apply PeanoNat.Nat.lt_0_succ].
Qed.

Theorem C02_fixed_backspace :
  forall (Q : oracles) c s ctrl, x_inv c s ->
    let r := x_backspace Q c s ctrl in xfull_ok (x_buffer (fst r)) (snd r) /\ x_inv c (fst r).
Proof.
  intros Q c s ctrl Hi. rewrite x_backspace_eq. destruct (x_ongoing s); [|split; [exact I | exact Hi]].
  destruct (ctrl || _); [split; [exact I | left; reflexivity] | apply x_create_ok].
Qed.

Theorem C02_fixed_init_inv : forall c, x_inv c x_init.
Proof. intros c. left. reflexivity. Qed.

(** The echo clause is really violated by the faithful model (known finding): after "ka" (eight
    candidates) the key ':' with selection byte 9 returns a two-candidate list with index 9. *)
Example C02_echo_refuted :
  exists (s : pstate) (k selb : N),
    match snd (p_key test_oracles cfg_all_on s k selb) with
    | OFull _ l sel _ => (length l <= sel)%nat
    | _ => False
    end.
Proof.
  exists (fst (p_key test_oracles cfg_all_on (fst (p_key test_oracles cfg_all_on (p_new [] []) 41120 0)) 41110 0)), 99, 9.
  vm_compute. repeat constructor.
Qed.

(** Non-vacuity: the key a after k (41110 after 41120), with an eight-candidate list. *)
Example C02_nonvacuous :
  snd (p_key test_oracles cfg_all_on (fst (p_key test_oracles cfg_all_on (p_new [] []) 41120 0)) 41110 0)
  = OFull [107; 97] [[2469]; [128512]; [128516]; [2453; 2494]; [2453; 2494; 2433]; [2454; 2494]; [2463; 2453]; [107; 97]] 0 false.
Proof. vm_compute. reflexivity. Qed.

Print Assumptions C02_phonetic_key.
Print Assumptions C02_phonetic_backspace.
Print Assumptions C02_composition_is_surviving_text.
Print Assumptions C02_fixed_key.
Print Assumptions C02_fixed_backspace.
