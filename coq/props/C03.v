(** Property C03: phonetic output is the Avro transliteration of exactly what was typed.
    "Avro transliteration" is the oracle [conv] (okkhor); everything around it is riti's and is proved. *)
Require Import Riti.model.Base Riti.model.Chars Riti.model.Split Riti.model.Rank Riti.model.Phonetic
        Riti.gen.Gen_Tables Riti.model.TestOracle Riti.proofs.Base_Proof Riti.proofs.TablesAgree Riti.proofs.Split_Proof
        Riti.proofs.Rank_Proof Riti.proofs.Phonetic_Proof Riti.proofs.C03_Proof.

(** The split itself, for every string: nothing lost or invented; punctuation-only text is all leading. *)
Theorem C03_split_conserves : forall s ic, sp_pre (split s ic) ++ sp_word (split s ic) ++ sp_trail (split s ic) = s.
Proof. exact split_concat. Qed.
Theorem C03_split_wrapped_word :
  forall l w r ic, forallb (fun c => mem c punct_chars) l = true -> forallb (fun c => mem c punct_chars) r = true ->
    w <> [] -> forallb alnum w = true -> split (l ++ w ++ r) ic = (l, w, r).
Proof.
  intros l w r ic Hl Hr Hw Ha.
  destruct (alnum_not_punct _ (forallb_hd alnum 0 w Hw Ha)) as (H1 & _ & _).
  destruct (alnum_not_punct _ (forallb_last alnum 0 w Hw Ha)) as (H2 & H3 & H4).
  apply split_wrapped; auto using punct_str_meta. rewrite H4. apply andb_false_r.
Qed.
Theorem C03_only_punctuation : forall s ic, forallb is_meta s = true -> split s ic = (s, [], []).
Proof. exact split_all_meta. Qed.

(** Suggestions off: for EVERY word of letters and digits and EVERY leading / trailing strings over the
    listed punctuation, the single string is conv(leading) ++ conv(word) ++ conv(trailing). *)
Theorem C03_lonely :
  forall (Q : oracles) (l w r : str),
    forallb (fun c => mem c punct_chars) l = true -> forallb (fun c => mem c punct_chars) r = true ->
    w <> [] -> forallb alnum w = true ->
    suggest_only_phonetic Q (l ++ w ++ r) = conv Q l ++ conv Q w ++ conv Q r.
Proof. intros. unfold suggest_only_phonetic. rewrite C03_split_wrapped_word by assumption. reflexivity. Qed.

(** Suggestions on, for EVERY typed text (any string), memo, user list, learned selections and options:
    the transliteration of the three split parts (with the smart-quote curling of the wrapping quotes when
    that option is on) is one of the candidates. *)
Theorem C03_transliteration_is_candidate :
  forall (Q : oracles) (c : pcfg) (m : memo) (uac sels : list (str * str)) (term : str),
    let '(_, l, _, _) := suggest Q c m uac sels term in
    In (sg_pre Q c term ++ conv Q (sg_word Q c term) ++ sg_tr Q c term) (map rstr l).
Proof.
  intros. rewrite suggest_eq. apply sort_strs_In, sg_l2_translit.
Qed.

(** The key table regenerated from the code equals the table derived from riti.h's names; every typeable
    ASCII character has a key; every key types an ASCII character ([keychar_ascii_sweep] in proofs/C01_Proof.v, which uses it). *)
Theorem C03_key_table : gen_keychar = spec_keychar.
Proof. exact keychar_agree. Qed.
(* 33 .. 126: from '!' to '~' *)
Theorem C03_all_typeable_have_keys : forallb (fun c => existsb (fun kc => snd kc =? c) gen_keychar) (rangeN 33 94) = true.
Proof. vm_compute. reflexivity. Qed.

Example C03_nonvacuous :
  split [40; 34; 107; 97; 49; 34; 41; 46] false = ([40; 34], [107; 97; 49], [34; 41; 46]) /\
  suggest_only_phonetic test_oracles [40; 34; 107; 97; 49; 34; 41; 46] = [40; 34; 0x99F; 0x995; 49; 34; 41; 46] /\
  sg_pre test_oracles cfg_all_on [34; 107; 97; 34] = [0x201C] /\ sg_tr test_oracles cfg_all_on [34; 107; 97; 34] = [0x201D].
Proof. vm_compute. repeat split. Qed.

Print Assumptions C03_lonely.
Print Assumptions C03_transliteration_is_candidate.
Print Assumptions C03_split_wrapped_word.
Print Assumptions C03_key_table.
