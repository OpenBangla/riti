(** What the assembled candidate lists contain (C07, C08, C16, C18). *)
From Coq Require Import Lia.
Require Import Riti.model.Base Riti.model.Rank Riti.model.Phonetic Riti.proofs.Base_Proof Riti.proofs.Rank_Proof
        Riti.proofs.Phonetic_Proof Riti.proofs.C05_Proof.

Lemma fold_push_inv xs : forall acc y, In y (fold_left push_checked xs acc) -> In y acc \/ In y xs.
Proof.
  induction xs as [|x t IH]; intros acc y H; [left; exact H|].
  apply IH in H. destruct H as [H|H]; [|right; right; exact H].
  apply push_checked_inv in H. destruct H as [H| ->]; [left; exact H | right; left; reflexivity].
Qed.

Lemma fold_push_incl xs : forall acc, incl acc (fold_left push_checked xs acc).
Proof. induction xs as [|x t IH]; intros acc; [apply incl_refl | exact (incl_tran (push_checked_incl acc x) (IH _))]. Qed.

(** every element offered to push_checked is represented (by an element with the same text) *)
Lemma fold_push_has xs : forall acc x, In x xs -> In (rstr x) (map rstr (fold_left push_checked xs acc)).
Proof.
  induction xs as [|a t IH]; intros acc x H; [destruct H|]. cbn [fold_left]. destruct H as [->|H]; [|apply IH; exact H].
  apply (incl_map rstr (fold_push_incl t _)), push_checked_has.
Qed.

Lemma fold_push_hd xs : forall a acc, hd a (fold_left push_checked xs (a :: acc)) = a.
Proof.
  induction xs as [|x t IH]; intros a acc; cbn [fold_left]; [reflexivity|].
  rewrite push_checked_app. apply IH.
Qed.

Lemma fold_push_nodup xs : forall acc, NoDup (map rstr acc) -> NoDup (map rstr (fold_left push_checked xs acc)).
Proof. induction xs as [|x t IH]; intros acc H; [exact H | apply IH, push_checked_nodup, H]. Qed.

Definition is_emoji (x : rank) : bool := match x with REmoji _ _ => true | _ => false end.
(** what can be offered under ANSI: no emoji, no emoticon literal (Last 1), no raw English (Last 3) *)
Definition plain (x : rank) : bool := match x with REmoji _ _ => false | RLast _ r => r =? 2 | _ => true end.
(** direct candidates: auto-correct entry or dictionary word *)
Definition is_direct (x : rank) : bool := match x with RFirst _ | ROther _ _ => true | _ => false end.

Lemma plain_not_emoji x : plain x = true -> is_emoji x = false.
Proof. destruct x; (discriminate || reflexivity). Qed.

Lemma plain_set_rstr y s : plain (set_rstr y s) = plain y.
Proof. destruct y; reflexivity. Qed.

Lemma plain_wrap p t y : plain (wrap p t y) = plain y.
Proof. apply plain_set_rstr. Qed.

Lemma direct_plain x : is_direct x = true -> plain x = true.
Proof. destruct x; (discriminate || reflexivity). Qed.

Section L.
Variable Q : oracles.

Inductive core_item (uac : list (str * str)) (w : str) : rank -> Prop :=
| ci_translit : core_item uac w (RLast (conv Q w) 2)
| ci_direct x : In x (direct Q uac w) -> core_item uac w x
| ci_suffix i b suf : (1 <= i < length w)%nat -> suffix_of Q (skipn i w) = Some suf -> In b (direct Q uac (firstn i w)) ->
    core_item uac w (set_rstr b (join (rstr b) suf)).

Lemma swd_core_items m uac w x : I1 Q uac m -> In x (swd_core Q m uac w) -> core_item uac w x.
Proof.
  (* peel off the transliteration, the fold of push_checked and the two halves of add_suffix; I1 turns a memo entry into [direct] *)
  intros H1 Hx. rewrite swd_core_upd in Hx. apply push_checked_inv in Hx. destruct Hx as [Hx| ->]; [|constructor].
  apply fold_push_inv in Hx. destruct Hx as [[]|Hx]. unfold add_suffix in Hx.
  rewrite (I1_lookup Q uac _ w (upd_I1 Q m uac w H1)), present_upd_same in Hx.
  apply in_app_iff in Hx. destruct Hx as [Hx|Hx]; [apply ci_direct, Hx|].
  destruct (Nat.ltb 2 (length w)); [|destruct Hx]. apply in_flat_map in Hx. destruct Hx as [i [Hi Hx]]. apply in_seq in Hi.
  unfold suffix_items in Hx. destruct (suffix_of Q (skipn i w)) as [suf|] eqn:Es; [|destruct Hx].
  destruct (assocS (firstn i w) _) as [cache|] eqn:Ec; [|destruct Hx]. apply in_map_iff in Hx. destruct Hx as [b [<- Hb]].
  apply (ci_suffix uac w i); [lia | exact Es | rewrite <- (upd_I1 Q m uac w H1 _ _ Ec); exact Hb].
Qed.

(** conversely, what add_suffix yields is there, as a text (push_checked keeps one item per text) *)
Lemma swd_core_has m uac w x : In x (add_suffix Q (upd Q m uac w) w) -> In (rstr x) (map rstr (swd_core Q m uac w)).
Proof. intros H. rewrite swd_core_upd. apply (incl_map rstr (push_checked_incl _ _)), fold_push_has, H. Qed.

Lemma direct_is_direct uac w x : In x (direct Q uac w) -> is_direct x = true.
Proof.
  unfold direct. rewrite in_app_iff. intros [H|H].
  - destruct (search_corrected Q uac w); [destruct H as [<-|[]]; reflexivity | destruct H].
  - apply in_flat_map in H. destruct H as [t [_ H]]. apply in_map_iff in H. destruct H as [s [<- _]]. reflexivity.
Qed.

Lemma core_item_plain uac w x : core_item uac w x -> plain x = true.
Proof.
  intros [|y H|i b suf _ _ H].
  - reflexivity.
  - apply direct_plain, (direct_is_direct uac w), H.
  - rewrite plain_set_rstr. apply direct_plain, (direct_is_direct uac (firstn i w)), H.
Qed.

Lemma sg_l0_plain c m uac term x : I1 Q uac m -> In x (sg_l0 Q c m uac term) -> plain x = true.
Proof.
  intros H1 Hx. rewrite sg_l0_eq in Hx. apply in_map_iff in Hx. destruct Hx as [y [<- Hy]].
  rewrite plain_wrap. eapply core_item_plain, swd_core_items; eassumption.
Qed.

Lemma sg_l0_no_emoji c m uac term : I1 Q uac m -> filter is_emoji (sg_l0 Q c m uac term) = [].
Proof. intros H1. apply filter_none. intros x Hx. apply plain_not_emoji, (sg_l0_plain c m uac term x H1 Hx). Qed.

Lemma sg_l2_inv c m uac term x : In x (sg_l2 Q c m uac term) -> In x (sg_l0 Q c m uac term) \/ plain x = false.
Proof.
  assert (L1 : In x (fst (sg_l1 Q c m uac term)) -> In x (sg_l0 Q c m uac term) \/ plain x = false).
  { unfold sg_l1. destruct (c_ansi c); [auto|]. destruct (emoticon Q term); cbn [fst].
    - rewrite in_app_iff. intros [H|[<-|[]]]; [|auto]. destruct (str_eqb term _); [auto|].
      apply push_checked_inv in H. destruct H as [H| ->]; auto.
    - destruct (emoji_name Q _); cbn [fst]; [|auto]. rewrite in_app_iff. intros [H|H]; [auto|].
      apply emoji_ranked_inv in H. destruct H as (s & n & ->). auto. }
  unfold sg_l2. destruct (sg_l1 Q c m uac term) as [l1 ta]. destruct (_ && _); [|exact L1].
  intros H. apply push_checked_inv in H. destruct H as [H| ->]; auto.
Qed.

(** soundness: every candidate is the transliteration, an emoji / emoticon literal / raw English item, a direct
    candidate of the typed word, or a direct candidate of a proper non-empty prefix joined to the known suffix *)
Inductive justified (c : pcfg) (uac : list (str * str)) (term : str) : rank -> Prop :=
| j_translit x : rstr x = sg_pre Q c term ++ conv Q (sg_word Q c term) ++ sg_tr Q c term -> justified c uac term x
| j_extra x : plain x = false -> justified c uac term x
| j_direct b x : In b (direct Q uac (sg_word Q c term)) -> rstr x = sg_pre Q c term ++ rstr b ++ sg_tr Q c term -> justified c uac term x
| j_suffix i b suf x : (1 <= i < length (sg_word Q c term))%nat -> suffix_of Q (skipn i (sg_word Q c term)) = Some suf ->
    In b (direct Q uac (firstn i (sg_word Q c term))) ->
    rstr x = sg_pre Q c term ++ join (rstr b) suf ++ sg_tr Q c term -> justified c uac term x.

End L.
