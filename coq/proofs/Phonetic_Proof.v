(** [suggest] and the method object of model/Phonetic.v through equations: the stages of the candidate list, what
    [create_suggestion] returns with the list on and off, the composition after a backspace, the commit. *)
Require Import Riti.model.Base Riti.model.Split Riti.model.Rank Riti.model.Phonetic Riti.proofs.Base_Proof Riti.proofs.Rank_Proof.

(** ** wrapping: the code skips it when both affixes are empty, which changes nothing *)
Lemma rstr_wrap p t y : rstr (wrap p t y) = p ++ rstr y ++ t. Proof. apply rstr_set_rstr. Qed.

Lemma wrap_nil x : wrap [] [] x = x.
Proof. unfold wrap. rewrite app_nil_r. apply set_rstr_same. Qed.

Lemma wrap_match pre tr l : match pre, tr with [], [] => l | _, _ => map (wrap pre tr) l end = map (wrap pre tr) l.
Proof.
  destruct pre, tr; try reflexivity. symmetry. etransitivity; [apply map_ext, wrap_nil | apply map_id].
Qed.

Lemma wrap_strs p t l : map rstr (map (wrap p t) l) = map (fun s => p ++ s ++ t) (map rstr l).
Proof. rewrite !map_map. apply map_ext. apply rstr_wrap. Qed.

Section P.
Variable Q : oracles.

(** [suggest] cut at its [let]s: the split and converted parts [sg_sp], the dictionary part [sg_l0] (with the memo [sg_m]),
    the list after the emoji step [sg_l1] (with the flag typed_added) and after the English step [sg_l2] *)
Definition sg_sp (c : pcfg) (term : str) : str * str * str :=
  let sp0 := split term false in
  let sp1 := (conv Q (sp_pre sp0), sp_word sp0, conv Q (sp_trail sp0)) in
  if c_smart c then smart_quoter sp1 else sp1.
Definition sg_pre c term := sp_pre (sg_sp c term).
Definition sg_word c term := sp_word (sg_sp c term).
Definition sg_tr c term := sp_trail (sg_sp c term).

Definition sg_l0 c m uac term := snd (suggestion_with_dict Q m uac (sg_pre c term) (sg_word c term) (sg_tr c term)).
Definition sg_m c m uac term := fst (suggestion_with_dict Q m uac (sg_pre c term) (sg_word c term) (sg_tr c term)).

Definition sg_l1 c m uac term : list rank * bool :=
  let l0 := sg_l0 c m uac term in
  if c_ansi c then (l0, false)
  else match emoticon Q term with
       | Some e => ((if str_eqb term (sg_pre c term) then l0 else push_checked l0 (RLast term 1)) ++ [REmoji e 1], true)
       | None => match emoji_name Q (sg_word c term) with
                 | Some es => (l0 ++ emoji_ranked (sg_pre c term) (sg_tr c term) es 1, false)
                 | None => (l0, false)
                 end
       end.

Definition sg_l2 c m uac term : list rank :=
  let '(l1, typed_added) := sg_l1 c m uac term in
  if english_on c && negb typed_added && negb (str_eqb term (sg_pre c term)) then push_checked l1 (RLast term 3) else l1.

Lemma suggest_eq c m uac sels term :
  suggest Q c m uac sels term =
  (sg_m c m uac term, sort_ranks (sg_l2 c m uac term), (sg_pre c term, sg_tr c term),
   prev_selection Q sels (sort_ranks (sg_l2 c m uac term)) (sg_pre c term) (sg_word c term) (sg_tr c term)).
Proof.
  (* by computation, [suggest] is this; the tuple is built under the match on the pair, [sg_l2] is the match itself *)
  change (suggest Q c m uac sels term) with
    (let '(l1, ta) := sg_l1 c m uac term in
     let l3 := sort_ranks (if english_on c && negb ta && negb (str_eqb term (sg_pre c term)) then push_checked l1 (RLast term 3) else l1) in
     (sg_m c m uac term, l3, (sg_pre c term, sg_tr c term), prev_selection Q sels l3 (sg_pre c term) (sg_word c term) (sg_tr c term))).
  unfold sg_l2. destruct (sg_l1 c m uac term). reflexivity.
Qed.

Lemma sg_word_is_split c term : sg_word c term = sp_word (split term false).
Proof.
  unfold sg_word, sg_sp. destruct (c_smart c); [|reflexivity].
  unfold smart_quoter, sp_word. destruct (snd (fst (split term false))); reflexivity.
Qed.

(* the [let] is [upd] of C05_Proof.v: rewrite with [swd_core_upd] there *)
Definition swd_core (m : memo) (uac : list (str * str)) (w : str) : list rank :=
  let m' := match assocS w m with Some _ => m | None => m ++ [(w, direct Q uac w)] end in
  push_checked (fold_left push_checked (add_suffix Q m' w) []) (RLast (conv Q w) 2).

Lemma swd_core_translit m uac w : In (conv Q w) (map rstr (swd_core m uac w)).
Proof. apply (push_checked_has _ (RLast (conv Q w) 2)). Qed.

Lemma sg_l0_eq c m uac term :
  sg_l0 c m uac term = map (wrap (sg_pre c term) (sg_tr c term)) (swd_core m uac (sg_word c term)).
Proof. (* [sg_l0] unfolds to the [match pre, tr] of suggestion_with_dict over [swd_core] *) apply wrap_match. Qed.

Lemma emoji_ranked_strs pre tr es : forall r, map rstr (emoji_ranked pre tr es r) = map (fun e => pre ++ e ++ tr) es.
Proof. induction es as [|e t IH]; intros r; cbn [emoji_ranked map]; [reflexivity | rewrite IH; reflexivity]. Qed.

Lemma emoji_ranked_inv pre tr es x : forall r, In x (emoji_ranked pre tr es r) -> exists s n, x = REmoji s n.
Proof. induction es as [|e t IH]; intros r; [intros [] | intros [<-|H]; eauto]. Qed.

Lemma sg_l0_incl c m uac term : incl (sg_l0 c m uac term) (sg_l2 c m uac term).
Proof.
  apply incl_tran with (fst (sg_l1 c m uac term)).
  - unfold sg_l1. destruct (c_ansi c); [apply incl_refl|]. destruct (emoticon Q term); cbn [fst].
    + apply incl_appl. destruct (str_eqb term _); [apply incl_refl | apply push_checked_incl].
    + destruct (emoji_name Q _); cbn [fst]; [apply incl_appl|]; apply incl_refl.
  - unfold sg_l2. destruct (sg_l1 c m uac term) as [l1 ta].
    destruct (_ && _); [apply push_checked_incl | apply incl_refl].
Qed.

Lemma sg_l2_ansi c m uac term : c_ansi c = true -> sg_l2 c m uac term = sg_l0 c m uac term.
Proof. intros Ha. unfold sg_l2, sg_l1, english_on. rewrite Ha, andb_false_r. reflexivity. Qed.

Lemma sg_l2_emoticon c m uac term e :
  c_ansi c = false -> emoticon Q term = Some e ->
  sg_l2 c m uac term
  = (if str_eqb term (sg_pre c term) then sg_l0 c m uac term else push_checked (sg_l0 c m uac term) (RLast term 1)) ++ [REmoji e 1].
Proof. intros Ha He. unfold sg_l2, sg_l1. rewrite Ha, He, andb_false_r. reflexivity. Qed.

Lemma sg_l2_names c m uac term es :
  c_ansi c = false -> emoticon Q term = None -> emoji_name Q (sg_word c term) = Some es ->
  sg_l2 c m uac term
  = let l1 := sg_l0 c m uac term ++ emoji_ranked (sg_pre c term) (sg_tr c term) es 1 in
    if english_on c && negb (str_eqb term (sg_pre c term)) then push_checked l1 (RLast term 3) else l1.
Proof. intros Ha He Hn. unfold sg_l2, sg_l1. rewrite Ha, He, Hn, andb_true_r. reflexivity. Qed.

Lemma sg_l2_translit c m uac term :
  In (sg_pre c term ++ conv Q (sg_word c term) ++ sg_tr c term) (map rstr (sg_l2 c m uac term)).
Proof.
  apply (incl_map rstr (sg_l0_incl c m uac term)). rewrite sg_l0_eq, wrap_strs.
  apply (in_map (fun s => _ ++ s ++ _)), swd_core_translit.
Qed.

Lemma sg_l2_nonempty c m uac term : sg_l2 c m uac term <> [].
Proof. intros E. pose proof (sg_l2_translit c m uac term) as H. rewrite E in H. exact H. Qed.

Lemma find_pos_spec sel l : forall k,
  match find_pos sel l k with
  | Some i => exists j, i = (k + j)%nat /\ option_map rstr (nth_error l j) = Some sel
  | None => ~ In sel (map rstr l)
  end.
Proof.
  induction l as [|x t IH]; intros k; cbn [find_pos map]; [intros []|].
  destruct (str_eqb (rstr x) sel) eqn:E.
  - exists O. apply str_eqb_eq in E. rewrite <- E. auto.
  - specialize (IH (S k)). destruct (find_pos sel t (S k)) as [i|].
    + destruct IH as (j & -> & H). exists (S j). split; [apply plus_n_Sm | exact H].
    + intros [H|H]; [rewrite H, str_eqb_refl in E; discriminate | exact (IH H)].
Qed.

Lemma find_pos_rel (R : rank -> rank -> Prop) tgt tgt' :
  (forall a b, R a b -> str_eqb (rstr a) tgt = str_eqb (rstr b) tgt') ->
  forall l l', Forall2 R l l' -> forall k, find_pos tgt l k = find_pos tgt' l' k.
Proof.
  intros H l l' F. induction F as [|a b l l' Hab F IH]; intros k; cbn [find_pos]; [reflexivity|].
  rewrite (H a b Hab). destruct (str_eqb (rstr b) tgt'); [reflexivity | apply IH].
Qed.

Lemma find_pos_offered sel l :
  In sel (map rstr l) -> exists i, find_pos sel l 0 = Some i /\ option_map rstr (nth_error l i) = Some sel.
Proof.
  intros H. pose proof (find_pos_spec sel l 0) as S. destruct (find_pos sel l 0) as [i|]; [|contradiction].
  destruct S as (j & -> & S). eauto.
Qed.

Lemma prev_selection_lt sels l pre w tr : l <> [] -> (prev_selection Q sels l pre w tr < length l)%nat.
Proof.
  intros Hl. unfold prev_selection. set (sel := pre ++ _ ++ tr). pose proof (find_pos_spec sel l 0) as S. destruct (find_pos sel l 0) as [i|].
  - destruct S as (j & -> & S). apply nth_error_Some. cbn [Nat.add]. destruct (nth_error l j); discriminate.
  - destruct l; [congruence | apply PeanoNat.Nat.lt_0_succ].
Qed.

Lemma create_suggestion_on c s :
  c_suggest c = true ->
  create_suggestion Q c s =
  let l := sort_ranks (sg_l2 c (p_memo s) (p_uac s) (p_buf s)) in
  let sel := prev_selection Q (p_sels s) l (sg_pre c (p_buf s)) (sg_word c (p_buf s)) (sg_tr c (p_buf s)) in
  ({| p_buf := p_buf s; p_memo := sg_m c (p_memo s) (p_uac s) (p_buf s); p_uac := p_uac s; p_sels := p_sels s;
      p_prev := sel; p_sugg := l; p_affix := (sg_pre c (p_buf s), sg_tr c (p_buf s)) |},
   OFull (p_buf s) (map rstr l) sel (c_ansi c)).
Proof. intros Hs. unfold create_suggestion. rewrite Hs, suggest_eq. reflexivity. Qed.

Lemma create_suggestion_off c s :
  c_suggest c = false -> create_suggestion Q c s = (s, OSingle (suggest_only_phonetic Q (p_buf s)) (c_ansi c)).
Proof. intros Hs. unfold create_suggestion. rewrite Hs. reflexivity. Qed.

Lemma create_suggestion_keeps c s :
  let s' := fst (create_suggestion Q c s) in p_buf s' = p_buf s /\ p_uac s' = p_uac s /\ p_sels s' = p_sels s.
Proof.
  destruct (c_suggest c) eqn:Hs; [rewrite create_suggestion_on by exact Hs | rewrite create_suggestion_off by exact Hs]; auto.
Qed.

Lemma create_suggestion_buf c s : p_buf (fst (create_suggestion Q c s)) = p_buf s.
Proof. apply create_suggestion_keeps. Qed.

Lemma p_backspace_buf c s ctrl :
  p_buf (fst (p_backspace Q c s ctrl))
  = if out_empty (snd (p_backspace Q c s ctrl)) || ctrl then [] else removelast (p_buf s).
Proof.
  unfold p_backspace. destruct (p_buf s) eqn:Eb; [exact Eb|]. destruct ctrl; [reflexivity|].
  destruct (removelast _); [reflexivity|].
  destruct (out_empty _) eqn:Eo; cbn [fst snd]; rewrite Eo; [reflexivity | apply create_suggestion_buf].
Qed.

(** [s] with nothing composed and the learned selections [sels]: the state after finish, commit, a clearing backspace *)
Definition idle (s : pstate) (sels : list (str * str)) : pstate :=
  {| p_buf := []; p_memo := p_memo s; p_uac := p_uac s; p_sels := sels; p_prev := p_prev s; p_sugg := p_sugg s; p_affix := p_affix s |}.

Lemma p_commit_idle {c s i s' w} : p_commit c s i = Some (s', w) -> s' = idle s (p_sels s').
Proof.
  unfold p_commit. destruct (_ && _ && _); [destruct (bare_suggestion s i); [|discriminate]|]; intros X; injection X as <- _; reflexivity.
Qed.

End P.
