(** Property C18: every emoticon and emoji name in the tables produces its emoji (parametric in the tables). *)
Require Import Riti.model.Base Riti.model.Chars Riti.model.Rank Riti.model.Phonetic Riti.model.FixedSuggest
        Riti.model.TestOracle Riti.proofs.Base_Proof Riti.proofs.Rank_Proof Riti.proofs.Phonetic_Proof Riti.proofs.C05_Proof
        Riti.proofs.Lists_Proof Riti.proofs.Order_Proof Riti.proofs.Fixed_Proof.

(** Phonetic, for EVERY emoticon table: outside ANSI a typed emoticon offers its emoji, and the literal typed text
    stays a candidate (when the whole text was taken as leading punctuation it is the transliteration candidate). *)
Theorem C18_emoticon :
  forall (Q : oracles) c m uac sels term e, c_ansi c = false -> emoticon Q term = Some e ->
    let '(_, l, _, _) := suggest Q c m uac sels term in
    In e (map rstr l) /\ (In term (map rstr l) \/ term = sg_pre Q c term).
Proof.
  intros Q c m uac sels term e Ha He. rewrite suggest_eq, (sg_l2_emoticon Q c m uac term e Ha He). split.
  - apply sort_strs_In. rewrite map_app. apply in_or_app. right. left. reflexivity.
  - destruct (str_eqb term (sg_pre Q c term)) eqn:E; [right; apply str_eqb_eq, E|]. left.
    apply sort_strs_In. rewrite map_app. apply in_or_app. left.
    apply (push_checked_has _ (RLast term 1)).
Qed.

(** Phonetic, for EVERY name table: all emoji listed for the word part are offered, wrapped in the same (converted,
    curled) punctuation as the word.  Their mutual order is the table order because their rank numbers 1,2,3..
    are strictly increasing and the list is sorted by (class, number) - C07_sorted. *)
Theorem C18_emoji_names :
  forall (Q : oracles) c m uac sels term es, c_ansi c = false -> emoticon Q term = None -> emoji_name Q (sg_word Q c term) = Some es ->
    let '(_, l, _, _) := suggest Q c m uac sels term in
    forall e, In e es -> In (sg_pre Q c term ++ e ++ sg_tr Q c term) (map rstr l).
Proof.
  intros Q c m uac sels term es Ha He Hn. rewrite suggest_eq, (sg_l2_names Q c m uac term es Ha He Hn).
  intros e Hin. apply sort_strs_In. rewrite push_if_app, !map_app, emoji_ranked_strs.
  apply in_or_app. left. apply in_or_app. right. exact (in_map _ _ _ Hin).
Qed.

(** ... and in TABLE ORDER: the emoji items of the returned list are exactly the emoji of the name, in the order of
    the table, for every transparent memo (every reachable one): filtering commutes with the stable sort, and the
    emoji of a name, numbered upwards, are sorted already, so that sorting them changes nothing. *)
Theorem C18_emoji_in_table_order :
  forall (Q : oracles) c m uac sels term es, c_ansi c = false -> emoticon Q term = None -> emoji_name Q (sg_word Q c term) = Some es -> I1 Q uac m ->
    let '(_, l, _, _) := suggest Q c m uac sels term in
    filter is_emoji l = emoji_ranked (sg_pre Q c term) (sg_tr Q c term) es 1.
Proof.
  intros Q c m uac sels term es Ha He Hn H1. rewrite suggest_eq, (sg_l2_names Q c m uac term es Ha He Hn).
  rewrite push_if_app, <- app_assoc. apply emoji_in_table_order; [apply sg_l0_no_emoji, H1 | destruct (_ && _); reflexivity].
Qed.

(** The presence of emoji never removes or reorders the other candidates: the non-emoji candidates are exactly the
    list assembled without the emoji step (filtering commutes with the stable sort and with the English step:
    [filter_sort], [filter_push_if]).  The side condition says that no emoji text equals the raw typed text (the
    duplicate check of the English item looks at the whole list). *)
Theorem C18_frame :
  forall (Q : oracles) c m uac sels term es, c_ansi c = false -> emoticon Q term = None -> emoji_name Q (sg_word Q c term) = Some es -> I1 Q uac m ->
    rank_mem (RLast term 3) (sg_l0 Q c m uac term ++ emoji_ranked (sg_pre Q c term) (sg_tr Q c term) es 1) = rank_mem (RLast term 3) (sg_l0 Q c m uac term) ->
    let '(_, l, _, _) := suggest Q c m uac sels term in
    filter (fun x => negb (is_emoji x)) l =
    sort_ranks (if english_on c && negb (str_eqb term (sg_pre Q c term)) then push_checked (sg_l0 Q c m uac term) (RLast term 3) else sg_l0 Q c m uac term).
Proof.
  intros Q c m uac sels term es Ha He Hn H1 Hmem. rewrite suggest_eq, filter_sort, (sg_l2_names Q c m uac term es Ha He Hn).
  f_equal. apply filter_push_if; [reflexivity | | exact Hmem].
  rewrite filter_app, (filter_none _ (emoji_ranked _ _ _ _)), app_nil_r.
  - apply filter_all. intros x Hx. rewrite (plain_not_emoji x (sg_l0_plain Q c m uac term x H1 Hx)). reflexivity.
  - intros x Hx. apply emoji_ranked_inv in Hx. destruct Hx as (s & n & ->). reflexivity.
Qed.

(** Fixed method: the emoticon's emoji / all emoji of the Bengali name (looked up without the non-joiners that
    traditional joining inserted) are in the sorted list before the cut at nine, wrapped like the word. *)
Theorem C18_fixed_emoticon :
  forall (Q : oracles) c buffer typed e, x_ansi c = false -> emoticon Q typed = Some e -> In e (map rstr (sort_ranks (ds_l3 Q c buffer typed))).
Proof.
  intros Q c buffer typed e Ha He. apply sort_strs_In. rewrite ds_l3_eq, Ha, He, map_app. apply in_or_app. right. left. reflexivity.
Qed.
Theorem C18_fixed_names :
  forall (Q : oracles) c buffer typed es e, x_ansi c = false -> emoticon Q typed = None ->
    emoji_bn Q (filter (fun ch => negb (ch =? ZWNJ)) (ds_word c buffer)) = Some es -> In e es ->
    In (ds_first c buffer ++ e ++ ds_last c buffer) (map rstr (sort_ranks (ds_l3 Q c buffer typed))).
Proof.
  intros Q c buffer typed es e Ha He Hn Hin. apply sort_strs_In. rewrite ds_l3_eq, Ha, He, Hn, map_app, emoji_ranked_strs.
  apply in_or_app. right. apply in_map_iff. exists e. auto.
Qed.

Theorem C18_fixed_names_in_table_order :
  forall (Q : oracles) c buffer typed es, x_ansi c = false -> emoticon Q typed = None ->
    emoji_bn Q (filter (fun ch => negb (ch =? ZWNJ)) (ds_word c buffer)) = Some es ->
    filter is_emoji (sort_ranks (ds_l3 Q c buffer typed)) = emoji_ranked (ds_first c buffer) (ds_last c buffer) es 1.
Proof.
  intros Q c buffer typed es Ha He Hn. rewrite ds_l3_eq, Ha, He, Hn, <- (app_nil_r (ds_l2 Q c buffer ++ _)), <- app_assoc.
  apply emoji_in_table_order; [apply ds_l2_no_emoji | reflexivity].
Qed.

(** emoji items carry the numbers 1, 2, 3 ... in table order *)
Theorem C18_emoji_numbers_follow_table_order :
  forall pre tr es r, map rank_num (emoji_ranked pre tr es r) = map (fun i => r + N.of_nat i) (seq 0 (length es)).
Proof.
  intros pre tr es. induction es as [|e t IH]; intros r; cbn [emoji_ranked map length seq]; [reflexivity|].
  f_equal; [cbn; rewrite N.add_0_r; reflexivity|]. rewrite IH, <- seq_shift, map_map. apply map_ext. intros i. rewrite Nat2N.inj_succ. rewrite <- N.add_1_l, N.add_assoc. reflexivity.
Qed.

Example C18_nonvacuous :
  let '(_, l, _, _) := suggest test_oracles cfg_all_on [] [] [] [40; 107; 97; 41] in
  map rstr l = [[40; 2469; 41]; [40; 128512; 41]; [40; 128516; 41]; [40; 2453; 2494; 41]; [40; 2453; 2494; 2433; 41]; [40; 2454; 2494; 41]; [40; 2463; 2453; 41]; [40; 107; 97; 41]].
Proof. vm_compute. reflexivity. Qed.

Print Assumptions C18_emoticon.
Print Assumptions C18_emoji_names.
Print Assumptions C18_fixed_names.
Print Assumptions C18_emoji_in_table_order.
Print Assumptions C18_frame.
Print Assumptions C18_fixed_names_in_table_order.
