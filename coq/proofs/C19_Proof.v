(** The handle automaton of model/Ffi.v (C19): freshness of handles, and what each accepted call does to the live set. *)
Require Import Riti.model.Base Riti.model.Ffi.

Definition ids (st : ffi) : list nat := map fst (live st).
Definition wf (st : ffi) : Prop := NoDup (ids st) /\ Forall (fun k => k < next st)%nat (ids st).

Inductive step_view (st : ffi) : call -> ffi -> Prop :=
| SNew v : step_view st (CNew v) (alloc st v)
| SFree h v : lookup h (live st) = Some v -> step_view st (CFree h) {| live := remove h (live st); next := next st |}
| SFreeNull : step_view st CFreeNullString st
| SRead h : step_view st (CRead h) st.

Lemma ffi_step_view {st c st'} : ffi_step st c = Some st' -> step_view st c st'.
Proof.
  destruct c as [v | h | | h]; cbn [ffi_step]; intros H.
  - injection H as <-. constructor.
  - destruct (lookup h (live st)) as [v|] eqn:E; [|discriminate]. injection H as <-. econstructor. exact E.
  - injection H as <-. constructor.
  - destruct (lookup h (live st)); [|discriminate]. injection H as <-. constructor.
Qed.

Lemma lookup_In h l v : lookup h l = Some v -> In (h, v) l.
Proof.
  induction l as [|[k w] t IH]; cbn [lookup]; [discriminate|]. destruct (Nat.eqb h k) eqn:E.
  - apply PeanoNat.Nat.eqb_eq in E. subst. intros X. injection X as <-. left. reflexivity.
  - intros X. right. apply IH, X.
Qed.

Lemma remove_ids_incl h l : incl (map fst (remove h l)) (map fst l).
Proof.
  induction l as [|[k w] t IH]; intros x H; cbn [remove] in H; [destruct H|].
  destruct (Nat.eqb h k); [right; exact H|]. destruct H as [<-|H]; [left; reflexivity | right; apply IH; exact H].
Qed.

Lemma remove_ids_nodup h l : NoDup (map fst l) -> NoDup (map fst (remove h l)).
Proof.
  induction l as [|[k w] t IH]; intros H; cbn [remove]; [exact H|]. inversion H as [|? ? Hk Ht]; subst.
  destruct (Nat.eqb h k); [exact Ht|]. cbn [map fst]. constructor; [|apply IH, Ht].
  intros X. apply Hk, (remove_ids_incl h _ _ X).
Qed.

Lemma lookup_remove_other h k l : h <> k -> lookup h (remove k l) = lookup h l.
Proof.
  intros Hne. induction l as [|[j w] t IH]; cbn [remove lookup]; [reflexivity|].
  destruct (Nat.eqb k j) eqn:E.
  - apply PeanoNat.Nat.eqb_eq in E. subst j. rewrite (proj2 (PeanoNat.Nat.eqb_neq h k) Hne). reflexivity.
  - cbn [lookup]. destruct (Nat.eqb h j); [reflexivity | exact IH].
Qed.

Lemma remove_length h l v : lookup h l = Some v -> S (length (remove h l)) = length l.
Proof.
  induction l as [|[k w] t IH]; intros Hl; cbn [lookup remove length] in *; [discriminate|].
  destruct (Nat.eqb h k); [reflexivity|]. cbn [length]. f_equal. apply IH. exact Hl.
Qed.

Fixpoint news (cs : list call) : nat := match cs with [] => 0 | CNew _ :: t => S (news t) | _ :: t => news t end.
Fixpoint frees (cs : list call) : nat := match cs with [] => 0 | CFree _ :: t => S (frees t) | _ :: t => frees t end.

Lemma ffi_run_balance : forall cs st st', ffi_run st cs = Some st' -> (length (live st') + frees cs = length (live st) + news cs)%nat.
Proof.
  induction cs as [|c t IH]; intros st st' Hr; cbn [ffi_run] in Hr; [inversion Hr; reflexivity|].
  destruct (ffi_step st c) as [st1|] eqn:Es; [|discriminate]. apply IH in Hr.
  destruct (ffi_step_view Es) as [v | h v El | | h]; cbn [news frees alloc live length] in *; try exact Hr.
  - rewrite Hr. apply plus_n_Sm.
  - rewrite <- plus_n_Sm, Hr, <- (remove_length _ _ _ El). reflexivity.
Qed.
