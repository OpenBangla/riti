(** The fixed-layout candidate list (C15, C16, the fixed parts of C02, C06, C17, C18) and backspace_event in one equation. *)
Require Import Riti.model.Base Riti.model.Chars Riti.model.Split Riti.model.Rank Riti.model.Phonetic
        Riti.model.FixedCompose Riti.model.FixedSuggest Riti.gen.Gen_Tables Riti.proofs.Base_Proof Riti.proofs.Rank_Proof
        Riti.proofs.Phonetic_Proof Riti.proofs.Lists_Proof.

Section F.
Variable Q : oracles.

Definition ds_sp (c : xcfg) (buffer : str) : str * str * str :=
  let sp0 := split buffer true in if x_smart c then smart_quoter sp0 else sp0.
Definition ds_first c b := sp_pre (ds_sp c b).
Definition ds_word c b := sp_word (ds_sp c b).
Definition ds_last c b := sp_trail (ds_sp c b).

(** [dictionary_suggestion_parts] names its intermediate lists l0 .. l4; the two that matter are kept under those numbers:
    [ds_l2], the dictionary part, and [ds_l3], the list before sorting (a copy of the model's text down to l3) *)

Definition ds_l2 (c : xcfg) (buffer : str) : list rank :=
  map (wrap (ds_first c buffer) (ds_last c buffer))
      (dedup_ranks (RFirst (ds_word c buffer) :: search_dictionary Q (ds_word c buffer) (ds_word c buffer) (o_kar (x_opts c)))).

Definition ds_l3 (c : xcfg) (buffer typed : str) : list rank :=
  let first := ds_first c buffer in let word := ds_word c buffer in let lastp := ds_last c buffer in
  let l1 := dedup_ranks (RFirst word :: search_dictionary Q word word (o_kar (x_opts c))) in
  let l2 := match first, lastp with [], [] => l1 | _, _ => map (wrap first lastp) l1 end in
  if x_ansi c then l2
  else match emoticon Q typed with
       | Some e => l2 ++ [REmoji e 1]
       | None => match emoji_bn Q (filter (fun ch => negb (ch =? ZWNJ)) word) with
                 | Some es => l2 ++ emoji_ranked first lastp es 1
                 | None => l2
                 end
       end.

Lemma ds_parts_eq c buffer typed :
  dictionary_suggestion_parts Q c buffer typed =
  if x_english_on c && negb (str_eqb buffer typed) then (sort_ranks (ds_l3 c buffer typed), 8%nat, Some (RLast typed 1))
  else (sort_ranks (ds_l3 c buffer typed), 9%nat, None).
Proof. reflexivity. Qed.

(* both branches are written as appends, so that users need one [Forall_app] / [Forall2_app] for either *)
Lemma ds_eq c buffer typed :
  dictionary_suggestion Q c buffer typed =
  if x_english_on c && negb (str_eqb buffer typed) then firstn 8 (sort_ranks (ds_l3 c buffer typed)) ++ [RLast typed 1]
  else firstn 9 (sort_ranks (ds_l3 c buffer typed)) ++ [].
Proof. unfold dictionary_suggestion. rewrite ds_parts_eq. destruct (x_english_on c && _); reflexivity. Qed.

Lemma ds_l3_eq c buffer typed :
  ds_l3 c buffer typed =
  if x_ansi c then ds_l2 c buffer
  else match emoticon Q typed with
       | Some e => ds_l2 c buffer ++ [REmoji e 1]
       | None => match emoji_bn Q (filter (fun ch => negb (ch =? ZWNJ)) (ds_word c buffer)) with
                 | Some es => ds_l2 c buffer ++ emoji_ranked (ds_first c buffer) (ds_last c buffer) es 1
                 | None => ds_l2 c buffer
                 end
       end.
Proof. unfold ds_l3. rewrite wrap_match. reflexivity. Qed.

Lemma ds_l3_head c buffer typed : exists t, ds_l3 c buffer typed = RFirst (ds_first c buffer ++ ds_word c buffer ++ ds_last c buffer) :: t.
Proof. rewrite ds_l3_eq. destruct (x_ansi c); [|destruct (emoticon Q typed); [|destruct (emoji_bn Q _)]]; eexists; reflexivity. Qed.

Lemma ds_sorted_head c buffer typed :
  exists r, sort_ranks (ds_l3 c buffer typed) = RFirst (ds_first c buffer ++ ds_word c buffer ++ ds_last c buffer) :: r.
Proof. destruct (ds_l3_head c buffer typed) as [t ->]. apply sort_first. Qed.

(** the composed text itself is always the first item put into the list *)
Lemma ds_nonempty c buffer typed : dictionary_suggestion Q c buffer typed <> [].
Proof. rewrite ds_eq. destruct (ds_sorted_head c buffer typed) as [r ->]. destruct (_ && _); discriminate. Qed.

(** what the dictionary contributes: words of the first letter's table that begin with the cleaned typed word *)
Lemma search_items word base trad x :
  In x (search_dictionary Q word base trad) ->
  exists table d, assocN (hd 0 word) gen_fixed_tables = Some table /\ In d (dict Q table (clean_string word)) /\
    is_prefix (clean_string word) d = true /\
    x = ROther (if trad then zwnj_kars d else d) (10 * edist Q base (if trad then zwnj_kars d else d)).
Proof.
  unfold search_dictionary. destruct (assocN (hd 0 word) gen_fixed_tables) as [table|]; [|intros []].
  intros H. apply in_map_iff in H. destruct H as [d [<- Hd]]. apply filter_In in Hd. destruct Hd as [Hd Hm].
  exists table, d. split; [reflexivity|]. split; [exact Hd|]. split; [|reflexivity].
  unfold prefix_match in Hm. destruct (strip_prefix (clean_string word) d) as [r|] eqn:E; [|discriminate].
  eapply strip_prefix_is_prefix; exact E.
Qed.

Inductive fixed_item (c : xcfg) (buffer typed : str) : rank -> Prop :=
| fi_typed x : x = RFirst (ds_first c buffer ++ ds_word c buffer ++ ds_last c buffer) -> fixed_item c buffer typed x
| fi_dict table d x : assocN (hd 0 (ds_word c buffer)) gen_fixed_tables = Some table ->
    In d (dict Q table (clean_string (ds_word c buffer))) -> is_prefix (clean_string (ds_word c buffer)) d = true ->
    let d' := if o_kar (x_opts c) then zwnj_kars d else d in
    x = ROther (ds_first c buffer ++ d' ++ ds_last c buffer) (10 * edist Q (ds_word c buffer) d') -> fixed_item c buffer typed x
| fi_emoji s r : x_ansi c = false -> fixed_item c buffer typed (REmoji s r)      (* which emoji: C18 *)
| fi_english : x_english_on c = true -> str_eqb buffer typed = false -> fixed_item c buffer typed (RLast typed 1).

(* [typed] is free: the two constructors that arise do not look at it *)
Lemma ds_l2_items c buffer typed x : In x (ds_l2 c buffer) -> fixed_item c buffer typed x /\ is_direct x = true.
Proof.
  intros H. apply in_map_iff in H. destruct H as [y [<- Hy]]. apply dedup_ranks_incl in Hy. destruct Hy as [<-|Hy].
  - split; [apply fi_typed|]; reflexivity.
  - apply search_items in Hy. destruct Hy as (table & d & Et & Hd & Hp & ->). split; [eapply fi_dict; eauto | reflexivity].
Qed.

Lemma ds_l3_items c buffer typed x : In x (ds_l3 c buffer typed) -> fixed_item c buffer typed x.
Proof.
  rewrite ds_l3_eq. destruct (x_ansi c) eqn:Ha; [apply ds_l2_items|]. destruct (emoticon Q typed).
  - intros H. apply in_app_iff in H. destruct H as [H|[<-|[]]]; [apply ds_l2_items; exact H | apply fi_emoji; exact Ha].
  - destruct (emoji_bn Q _); [|apply ds_l2_items]. intros H. apply in_app_iff in H. destruct H as [H|H]; [apply ds_l2_items; exact H|].
    apply emoji_ranked_inv in H. destruct H as (s & n & ->). apply fi_emoji; exact Ha.
Qed.

Lemma ds_items c buffer typed : Forall (fixed_item c buffer typed) (dictionary_suggestion Q c buffer typed).
Proof.
  assert (K : forall n, Forall (fixed_item c buffer typed) (firstn n (sort_ranks (ds_l3 c buffer typed)))).
  { intros n. apply Forall_forall. intros x Hx. apply ds_l3_items, sort_In, (firstn_incl n), Hx. }
  rewrite ds_eq. destruct (x_english_on c && negb (str_eqb buffer typed)) eqn:E; apply Forall_app; (split; [apply K|]).
  - apply andb_prop in E. destruct E as [E1 E2]. apply negb_true_iff in E2. repeat constructor; assumption.
  - constructor.
Qed.

Lemma ds_l2_no_emoji c buffer : filter is_emoji (ds_l2 c buffer) = [].
Proof.
  apply filter_none. intros x Hx. apply plain_not_emoji, direct_plain, (ds_l2_items c buffer [] x Hx).
Qed.

(** what is left of the text after a backspace: the waiting sign goes first *)
Definition x_back_rb (s : xstate) : list N := match x_pend s with Some _ => x_rb s | None => tl (x_rb s) end.

Lemma x_backspace_eq c s ctrl :
  x_backspace Q c s ctrl =
  if x_ongoing s then
    if ctrl || match x_back_rb s with [] => true | _ => false end then (x_clear s, OSingle [] false)
    else x_create Q c {| x_rb := x_back_rb s; x_typed := removelast (x_typed s); x_pend := None; x_sugg := x_sugg s |}
  else (s, OSingle [] false).
Proof.
  unfold x_backspace, x_ongoing, x_back_rb. destruct (x_rb s) as [|a rb], (x_pend s), ctrl; try reflexivity.
  destruct rb; reflexivity.
Qed.

End F.
