(** process_key_value with the old vowel-sign order off is the rule table of spec/C12_Spec.v (C12); class facts that the
    proofs about the fixed composition share. *)
Require Import Riti.model.Base Riti.model.Chars Riti.model.FixedCompose Riti.spec.C12_Spec Riti.proofs.Base_Proof.

Lemma isnil_rev {A} (l : list A) : isnil (rev l) = isnil l.
Proof. destruct l as [|x t]; [reflexivity|]. cbn [rev]. destruct (rev t); reflexivity. Qed.

Lemma rev_push_str rb v : rev (push_str rb v) = rev rb ++ v.
Proof. unfold push_str. rewrite rev_app_distr, rev_involutive. reflexivity. Qed.

Lemma rev_cons (x : N) l : rev (x :: l) = rev l ++ [x].
Proof. reflexivity. Qed.

(** The two sweeps are the conjuncts of [classes_disjoint] (spec/C13_Spec.v; see [disj] in C13_Proof.v); each gives
    three facts about the members of its class. *)
Lemma vowels_disj :
  forallb (fun v => negb (is_pure_consonant v) && negb (v =? B_HASANTA) && negb (v =? B_CHANDRA)) vowels = true.
Proof. vm_compute. reflexivity. Qed.
Lemma cons_disj :
  forallb (fun c => negb (c =? B_HASANTA) && negb (c =? B_CHANDRA) && negb (is_vowel c)) pure_consonants = true.
Proof. vm_compute. reflexivity. Qed.

Lemma negb3 a b c : negb a && negb b && negb c = true -> a = false /\ b = false /\ c = false.
Proof. destruct a, b, c; try discriminate; auto. Qed.

Lemma vowel_not_cons v : is_vowel v = true -> is_pure_consonant v = false.
Proof. intros H. exact (proj1 (negb3 _ _ _ (forallb_mem vowels_disj H))). Qed.
Lemma vowel_not_hasanta v : is_vowel v = true -> (v =? B_HASANTA) = false.
Proof. intros H. exact (proj1 (proj2 (negb3 _ _ _ (forallb_mem vowels_disj H)))). Qed.
Lemma vowel_not_chandra v : is_vowel v = true -> (v =? B_CHANDRA) = false.
Proof. intros H. exact (proj2 (proj2 (negb3 _ _ _ (forallb_mem vowels_disj H)))). Qed.
Lemma cons_not_hasanta c : is_pure_consonant c = true -> (c =? B_HASANTA) = false.
Proof. intros H. exact (proj1 (negb3 _ _ _ (forallb_mem cons_disj H))). Qed.
Lemma cons_not_chandra c : is_pure_consonant c = true -> (c =? B_CHANDRA) = false.
Proof. intros H. exact (proj1 (proj2 (negb3 _ _ _ (forallb_mem cons_disj H)))). Qed.
Lemma cons_not_vowel c : is_pure_consonant c = true -> is_vowel c = false.
Proof. intros H. exact (proj2 (proj2 (negb3 _ _ _ (forallb_mem cons_disj H)))). Qed.

Lemma cons_not_kar c : is_pure_consonant c = true -> is_kar c = false.
Proof. revert c. apply forallb_mem_not. vm_compute. reflexivity. Qed.
Lemma cons_not_lm c : is_pure_consonant c = true -> (c =? B_LENGTH_MARK) = false.
Proof. revert c. apply forallb_mem_not. vm_compute. reflexivity. Qed.
Lemma cons_not_e_kar c : is_pure_consonant c = true -> (c =? B_E_KAR) = false.
Proof. intros H. destruct (N.eqb_spec c B_E_KAR) as [->|_]; [discriminate H | reflexivity]. Qed.
Lemma cons_not_vowel_mark c : is_pure_consonant c = true -> is_vowel c || is_mark c = false.
Proof. revert c. apply forallb_mem_not. vm_compute. reflexivity. Qed.
Lemma kar_not_hasanta k : is_kar k = true -> (k =? B_HASANTA) = false.
Proof. revert k. apply forallb_mem_not. vm_compute. reflexivity. Qed.
Lemma lsk_kar k : is_left_standing_kar k = true -> is_kar k = true.
Proof. apply forallb_mem. vm_compute. reflexivity. Qed.
Lemma cons_not_lsk c : is_pure_consonant c = true -> is_left_standing_kar c = false.
Proof.
  intros H. destruct (is_left_standing_kar c) eqn:E; [|reflexivity].
  apply lsk_kar in E. rewrite (cons_not_kar c H) in E. discriminate E.
Qed.
Lemma lsk_not_lig k : is_left_standing_kar k = true -> is_ligature_making_kar k = false.
Proof. revert k. apply forallb_mem_not. vm_compute. reflexivity. Qed.

Lemma str1_zofola c : str_eqb [c] zofola = false.
Proof. (* the second conjunct is [str_eqb [] [_]] *) apply andb_false_r. Qed.
Lemma str1_reph c : str_eqb [c] reph = false.
Proof. apply andb_false_r. Qed.

Lemma kars_have_vowel : kar_has_vowel = true.
Proof. vm_compute. reflexivity. Qed.

Lemma vowel_of_kar_some c : is_kar c = true -> exists v, vowel_of_kar c = Some v.
Proof.
  intros H. pose proof (forallb_mem kars_have_vowel H) as G. cbn beta in G.
  destruct (vowel_of_kar c) as [v|]; [eauto | discriminate].
Qed.

Lemma kar_chain_is_sign_rule o rb c :
  is_kar c = true ->
  rev (kar_chain o (hd 0 rb) rb c) = sign_rule o (rev rb) c.
Proof.
  intros Hk. destruct (vowel_of_kar_some c Hk) as [v Hv].
  unfold kar_chain, sign_rule, lastc, indep. rewrite last_rev_hd, isnil_rev, removelast_rev, Hv.
  fold (isnil rb).
  destruct (o_vowel o && (isnil rb || is_vowel (hd 0 rb) || is_mark (hd 0 rb))); [reflexivity|].
  destruct (o_chandra o && (hd 0 rb =? B_CHANDRA)).
  { rewrite !rev_cons, <- app_assoc. reflexivity. }
  destruct (hd 0 rb =? B_HASANTA); [reflexivity|].
  destruct (o_kar o && is_pure_consonant (hd 0 rb)); [|reflexivity].
  destruct (is_ligature_making_kar c); rewrite !rev_cons, <- ?app_assoc; reflexivity.
Qed.

Lemma pkv_tail_off o rb pend v : o_kar_order o = false -> pkv_tail o rb pend v = (push_str rb v, pend).
Proof. unfold pkv_tail. intros ->. reflexivity. Qed.

Lemma pkv_tail_none o rb v : pkv_tail o rb None v = (push_str rb v, None).
Proof. unfold pkv_tail. destruct (o_kar_order o); reflexivity. Qed.

Lemma pair_rev (x y : list N) (p : option N) : rev x = y -> (x, p) = (rev y, p).
Proof. intros <-. rewrite rev_involutive. reflexivity. Qed.

(** Reph placement of the model, on reading-order text. *)
Definition model_reph (p : str) : str := rev (insert_old_style_reph (rev p)).

(** The model of [process_key_value] with the old vowel-sign order off is the rule table,
    for every buffer, every value and every pending state (which it never touches).
    The model keeps the text reversed, the rule table reads it forwards: each branch is compared after reversing
    the model's side ([pair_rev]), where [rev_push_str] and [rev_cons] turn pushes into appends. *)
Lemma pkv_is_rule_table o rb pend v :
  o_kar_order o = false ->
  process_key_value o rb pend v = (rev (rule_table model_reph o (rev rb) v), pend).
Proof.
  intros Hko. unfold rule_table, lastc, model_reph.
  rewrite removelast_rev, !last_rev_hd, rev_involutive.
  unfold process_key_value, pkv_gen, rmc_of. rewrite Hko. cbn [andb].
  destruct (str_eqb v zofola).
  { apply pair_rev. rewrite rev_push_str, nth1_hd_tl.
    destruct ((hd 0 rb =? B_R) && negb (hd 0 (tl rb) =? B_HASANTA)); [rewrite rev_cons, <- app_assoc|]; reflexivity. }
  destruct (str_eqb v reph && o_old_reph o); [apply pair_rev; reflexivity|].
  destruct v as [|c rest]; [rewrite pkv_tail_off by exact Hko; apply pair_rev; reflexivity|].
  destruct (is_kar c) eqn:Hk.
  { apply pair_rev. rewrite rev_push_str, (kar_chain_is_sign_rule o rb c Hk). reflexivity. }
  destruct ((c =? B_HASANTA) && (hd 0 rb =? B_HASANTA)).
  { apply pair_rev. rewrite rev_push_str, rev_cons, <- app_assoc. reflexivity. }
  destruct ((c =? B_LENGTH_MARK) && (hd 0 rb =? B_HASANTA)).
  { apply pair_rev. rewrite rev_push_str, rev_cons, <- app_assoc. reflexivity. }
  rewrite pkv_tail_off by exact Hko. apply pair_rev, rev_push_str.
Qed.
