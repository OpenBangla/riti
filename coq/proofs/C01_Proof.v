(** No in-contract event can make the model panic (C01): the only partial operation of the model is the
    commit, which indexes the stored candidate list; the stored list is the most recently returned one. *)
From Coq Require Import Lia.
Require Import Riti.model.Base Riti.model.Rank Riti.model.Layout Riti.model.Phonetic Riti.gen.Gen_Tables
        Riti.proofs.Base_Proof Riti.proofs.Phonetic_Proof.

Section C01.
Variable Q : oracles.

Definition commit_in_range (c : pcfg) (s : pstate) (e : pevent) : Prop :=
  match e with
  | PCommit i => p_buf s <> [] -> c_suggest c = true -> (i < length (p_sugg s))%nat
  | _ => True
  end.

Lemma p_step_total c s e : commit_in_range c s e -> p_step Q c s e <> None.
Proof.
  destruct e as [k selb | ctrl | i | | c' r]; cbn [p_step commit_in_range]; intros H; try discriminate.
  - destruct (p_key Q c s k selb). discriminate.
  - destruct (p_backspace Q c s ctrl). discriminate.
  - unfold p_commit. destruct (c_suggest c); [|rewrite andb_false_r; discriminate].
    destruct (p_buf s); [rewrite andb_false_r; discriminate|].
    destruct (negb _ && _ && _); [|discriminate].
    unfold bare_suggestion. destruct (nth_error (p_sugg s) i) eqn:En; [discriminate|].
    (* the index is outside the list although a word is composed with the list on: against [commit_in_range] *)
    apply nth_error_None in En. assert (i < length (p_sugg s))%nat by (apply H; [discriminate | reflexivity]). lia.
Qed.

Lemma create_suggestion_stored c s aux l sel ansi :
  snd (create_suggestion Q c s) = OFull aux l sel ansi -> map rstr (p_sugg (fst (create_suggestion Q c s))) = l.
Proof.
  destruct (c_suggest c) eqn:Hs.
  - rewrite create_suggestion_on by exact Hs. cbn [fst snd p_sugg]. intros X. injection X as _ <- _ _. reflexivity.
  - rewrite create_suggestion_off by exact Hs. discriminate.
Qed.

Definition ascii (s : str) : Prop := Forall (fun ch => ch < 128) s.

Lemma keychar_ascii_sweep : forallb (fun kc => snd kc <? 128) gen_keychar = true.
Proof. vm_compute. reflexivity. Qed.

Lemma keychar_ascii k ch : keycode_to_char k = Some ch -> ch < 128.
Proof.
  intros H. apply N.ltb_lt. exact (proj1 (forallb_forall _ _) keychar_ascii_sweep _ (assocN_In H)).
Qed.

(** the composition (what the auxiliary text shows) as a function of the events alone *)
Definition compose_step (buf : str) (e : pevent) : str :=
  match e with
  | PKey k _ => match keycode_to_char k with Some ch => buf ++ [ch] | None => buf end
  | PBackspace true => []
  | PBackspace false => removelast buf
  | PCommit _ | PFinish => []
  | PUpdate _ _ => buf
  end.

Lemma p_key_buf c s k selb : p_buf (fst (p_key Q c s k selb)) = compose_step (p_buf s) (PKey k selb).
Proof.
  unfold p_key, compose_step. destruct (keycode_to_char k) as [ch|].
  - pose proof (create_suggestion_buf Q c (set_buf s (p_buf s ++ [ch]))) as Hb.
    destruct (create_suggestion Q c _) as [s1 o1]. exact Hb.
  - destruct (p_buf s) eqn:Eb; [exact Eb|]. rewrite create_suggestion_buf. exact Eb.
Qed.

(** the composition follows [compose_step], with one exception: a backspace whose result is an empty suggestion although
    characters are left (they display as nothing) ends the word ([p_backspace_buf]), so that "empty suggestion" and
    "no session" always go together *)
Lemma p_step_buf c s e c' s' o :
  p_step Q c s e = Some (c', s', o) ->
  p_buf s' = compose_step (p_buf s) e \/ (e = PBackspace false /\ out_empty o = true /\ p_buf s' = []).
Proof.
  destruct e as [k selb | ctrl | i | | cc r]; cbn [p_step].
  - pose proof (p_key_buf c s k selb) as H. destruct (p_key Q c s k selb). intros X. injection X as _ <- _. auto.
  - pose proof (p_backspace_buf Q c s ctrl) as H. destruct (p_backspace Q c s ctrl) as [s1 o1]. intros X. injection X as _ <- <-.
    cbn [fst snd] in H. destruct (out_empty o1), ctrl; auto.
  - destruct (p_commit c s i) as [[s1 w]|] eqn:E; intros X; [injection X as _ <- _ | discriminate]. left. rewrite (p_commit_idle E). reflexivity.
  - intros X. injection X as _ <- _. auto.
  - intros X. injection X as _ <- _. destruct r; auto.
Qed.

End C01.
