(** Old-style reph (C13): the model's right-to-left scan counts exactly what spec/C13_Spec.v [reph_span] counts. *)
Require Import Riti.model.Base Riti.model.Chars Riti.model.FixedCompose Riti.proofs.Base_Proof Riti.proofs.C12_Proof Riti.spec.C13_Spec.

(** The sweeps are proved on their own (proofs/C12_Proof.v): a proof of [classes_disjoint = true] used where
    [_ && _ = true] is expected makes the kernel evaluate the whole conjunction again, without the VM, at every use. *)
Lemma disj : classes_disjoint = true.
Proof. unfold classes_disjoint. rewrite vowels_disj, cons_disj. reflexivity. Qed.

Lemma conj_rest_stop t : (hd 0 t =? B_HASANTA) = false -> conj_rest t = O.
Proof. destruct t as [|h [|c t']]; cbn [conj_rest hd]; intros H; [reflexivity | reflexivity | rewrite H; reflexivity]. Qed.

Lemma conj_rest_hasanta t : is_pure_consonant (hd 0 t) = true -> conj_rest (B_HASANTA :: t) = S (conj_len t).
Proof.
  destruct t as [|c t']; intros H; [discriminate H|]. cbn [hd] in H.
  cbn [conj_rest conj_len]. rewrite H. reflexivity.
Qed.

Lemma wf_r_tl {x t} : wf_r (x :: t) = true -> wf_r t = true.
Proof. cbn [wf_r]. intros H. apply andb_prop in H. tauto. Qed.

Lemma scan_chandra t k v h ch step :
  reph_scan (B_CHANDRA :: t) 0 k v h ch step = reph_scan t 1 k v h true (S step).
Proof. reflexivity. Qed.

Lemma scan_vowel x t idx k h ch step :
  is_vowel x = true -> (Nat.eqb idx 0 || ch && Nat.eqb idx 1) = true ->
  reph_scan (x :: t) idx k false h ch step = reph_scan t (S idx) k true h ch (S step).
Proof.
  intros Hv Hi. cbn [reph_scan]. rewrite (vowel_not_cons x Hv), (vowel_not_hasanta x Hv), Hv, Hi. reflexivity.
Qed.

(** Over the conjunct the scan alternates between two states as the specification alternates between
    [conj_rest] and [conj_len]: a consonant has just been taken, or a consonant is due (at the start
    of the conjunct or after a hasanta: the flags [constant] and [hasanta] are equal there).  The
    hypothesis on [ch] and [idx] makes the scan refuse a vowel behind index [idx]; a chandrabindu it
    refuses behind any index. *)
Lemma scan_conjunct t : forall idx v ch step,
  wf_r t = true -> ch && Nat.eqb idx 0 = false ->
  reph_scan t (S idx) true v false ch step = (conj_rest t + step)%nat /\                (* a consonant has just been taken *)
  forall b, is_pure_consonant (hd 0 t) = true -> reph_scan t idx b v b ch step = (conj_len t + step)%nat.  (* one is due *)
Proof.
  induction t as [|x t IH]; intros idx v ch step Hwf Hi.
  { split; [reflexivity | discriminate]. }
  cbn [wf_r] in Hwf. apply andb_prop in Hwf. destruct Hwf as [Hx Hwf]. split.
  - cbn [reph_scan]. destruct (is_pure_consonant x) eqn:Hc.
    { rewrite (conj_rest_stop (x :: t) (cons_not_hasanta x Hc)). reflexivity. }
    destruct (x =? B_HASANTA) eqn:Hh.
    { (* hasanta: by well-formedness a consonant follows *)
      apply N.eqb_eq in Hh. subst x.
      rewrite (conj_rest_hasanta t Hx), (proj2 (IH (S (S idx)) v ch (S step) Hwf (andb_false_r ch)) true Hx).
      apply PeanoNat.Nat.add_succ_r. }
    rewrite (conj_rest_stop (x :: t) Hh).
    destruct (is_vowel x).
    { destruct v; [reflexivity|]. cbn [Nat.eqb orb]. rewrite Hi. reflexivity. }
    destruct (x =? B_CHANDRA); reflexivity.
  - intros b Hc. cbn [hd] in Hc. cbn [reph_scan conj_len]. rewrite Hc, andb_negb_r.
    rewrite (proj1 (IH idx v ch (S step) Hwf Hi)). apply PeanoNat.Nat.add_succ_r.
Qed.

(** the test of [is_reph_moveable] is carried along in the [if]; the statements are cut where [reph_span] cuts its [let]s *)
Lemma scan_conj_len r idx v ch step :
  wf_r r = true -> ch && Nat.eqb idx 0 = false ->
  (if is_pure_consonant (hd 0 r) then reph_scan r idx false v false ch step else O)
  = match conj_len r with O => O | k => (step + k)%nat end.
Proof.
  intros Hwf Hi. destruct r as [|c t]; [reflexivity|]. cbn [hd conj_len].
  destruct (is_pure_consonant c) eqn:Hc; [|reflexivity].
  rewrite (proj2 (scan_conjunct (c :: t) idx v ch step Hwf Hi) false Hc). cbn [conj_len]. rewrite Hc.
  apply PeanoNat.Nat.add_comm.
Qed.

(** the vowel may stand at index 0, or at index 1 behind a chandrabindu *)
Lemma scan_vowel_conj r idx ch step :
  wf_r r = true -> (Nat.eqb idx 0 || ch && Nat.eqb idx 1) = true -> ch && Nat.eqb idx 0 = false ->
  (if is_pure_consonant (hd 0 r) || is_vowel (hd 0 r) && is_pure_consonant (hd 0 (tl r))
   then reph_scan r idx false false false ch step else O)
  = (let '(n2, r2) := match r with v :: t => if is_vowel v then (1%nat, t) else (O, r) | [] => (O, r) end in
     match conj_len r2 with O => O | k => (step + n2 + k)%nat end).
Proof.
  intros Hwf Hv0 Hi. destruct r as [|x t]; [reflexivity|]. cbn [hd tl].
  destruct (is_vowel x) eqn:Hv.
  - rewrite (vowel_not_cons x Hv).
    rewrite (scan_vowel x t idx _ _ _ _ Hv Hv0), PeanoNat.Nat.add_1_r.
    apply scan_conj_len; [exact (wf_r_tl Hwf) | apply andb_false_r].
  - cbn [andb]. rewrite orb_false_r, PeanoNat.Nat.add_0_r. apply (scan_conj_len (x :: t)); assumption.
Qed.

Lemma model_span rb :
  wf_r rb = true ->
  (if is_reph_moveable rb then reph_scan rb 0 false false false false 0 else 0%nat) = reph_span rb.
Proof.
  intros Hwf. unfold is_reph_moveable, reph_span.
  destruct rb as [|c t]; [reflexivity|]. cbn [hd tl].
  destruct (c =? B_CHANDRA) eqn:Hch.
  - (* both sides compute to the statement of [scan_vowel_conj] at index and step 1 (0 in the other case) *)
    apply N.eqb_eq in Hch. subst c. rewrite scan_chandra.
    exact (scan_vowel_conj t 1 true 1 (wf_r_tl Hwf) eq_refl eq_refl).
  - exact (scan_vowel_conj (c :: t) 0 false 0 Hwf eq_refl eq_refl).
Qed.

Lemma insert_reph_eq rb :
  insert_old_style_reph rb =
  let k := if is_reph_moveable rb then reph_scan rb 0 false false false false 0 else O in
  firstn k rb ++ [B_HASANTA; B_R] ++ skipn k rb.
Proof. unfold insert_old_style_reph. destruct (is_reph_moveable rb); reflexivity. Qed.

Lemma model_reph_eq p :
  model_reph p =
  let j := (length p - if is_reph_moveable (rev p) then reph_scan (rev p) 0 false false false false 0 else O)%nat in
  firstn j p ++ reph ++ skipn j p.
Proof.
  unfold model_reph. rewrite insert_reph_eq.
  rewrite !rev_app_distr, firstn_rev, skipn_rev, !rev_involutive, <- app_assoc. reflexivity.
Qed.

Lemma reph_placement p : wf_hasanta p = true -> model_reph p = reph_spec p.
Proof. intros Hwf. rewrite model_reph_eq, (model_span (rev p) Hwf). reflexivity. Qed.

Lemma reph_spec_app q s : reph_span (rev (q ++ s)) = length s -> reph_spec (q ++ s) = q ++ reph ++ s.
Proof.
  intros E. unfold reph_spec. rewrite E, app_length, PeanoNat.Nat.add_sub.
  rewrite firstn_app_length, skipn_app_length. reflexivity.
Qed.

Lemma conjunct_rev_len l : conjunct l -> forall t,
  is_pure_consonant (hd 0 (rev l ++ t)) = true /\ conj_len (rev l ++ t) = (length l + conj_rest t)%nat.
Proof.
  induction 1 as [c Hc | c l Hc _ IH]; intros t.
  - cbn [rev app hd conj_len length]. rewrite Hc. auto.
  - rewrite !rev_cons, <- !app_assoc. cbn [app]. destruct (IH (B_HASANTA :: c :: t)) as [Hh Hl].
    split; [exact Hh|]. rewrite Hl, conj_rest_hasanta by exact Hc. cbn [conj_len length]. rewrite Hc, <- !plus_n_Sm. reflexivity.
Qed.

Lemma reph_span_syllable ch v r :
  (ch = [] \/ ch = [B_CHANDRA]) -> (v = [] \/ exists x, v = [x] /\ is_vowel x = true) ->
  is_pure_consonant (hd 0 r) = true ->
  reph_span (rev ch ++ rev v ++ r) = (length ch + (length v + conj_len r))%nat.
Proof.
  intros Hch Hv Hc. destruct r as [|c t]; [discriminate Hc|]. cbn [hd] in Hc.
  pose proof (cons_not_chandra c Hc) as C2. pose proof (cons_not_vowel c Hc) as C3.
  destruct Hch as [-> | ->], Hv as [-> | (x & -> & Hx)]; cbn [rev app length]; unfold reph_span, conj_len.
  - rewrite C2, C3, Hc. reflexivity.
  - rewrite (vowel_not_chandra x Hx), Hx, Hc. reflexivity.
  - rewrite N.eqb_refl, C3, Hc. reflexivity.
  - rewrite N.eqb_refl, Hx, Hc. reflexivity.
Qed.

Lemma reph_placement_grammar q cj v ch :
  conjunct cj -> (v = [] \/ exists x, v = [x] /\ is_vowel x = true) -> (ch = [] \/ ch = [B_CHANDRA]) ->
  (last q 0 =? B_HASANTA) = false ->
  reph_spec (q ++ cj ++ v ++ ch) = q ++ reph ++ cj ++ v ++ ch.
Proof.
  intros Hcj Hv Hch Hq. apply reph_spec_app.
  destruct (conjunct_rev_len cj Hcj (rev q)) as [Hc Hl].
  (* both sides count from the end of the text *)
  rewrite <- (rev_length (cj ++ v ++ ch)), !rev_app_distr, <- !app_assoc, !app_length, !rev_length.
  rewrite (reph_span_syllable _ _ _ Hch Hv Hc), Hl, conj_rest_stop, PeanoNat.Nat.add_0_r; [reflexivity|].
  rewrite <- last_rev_hd, rev_involutive. exact Hq.
Qed.
