(** Property C13: old-style reph is moved in front of the final conjunct and loses nothing. *)
Require Import Riti.model.Base Riti.model.Chars Riti.model.FixedCompose Riti.spec.C12_Spec Riti.spec.C13_Spec
        Riti.proofs.C12_Proof Riti.proofs.C13_Proof.

(** Conservation, for EVERY composed text p (well-formed or not, the empty text included):
    the reph key yields p with exactly the reph inserted at one position. *)
Theorem C13_conservation :
  forall p : str, exists j, (j <= length p)%nat /\ model_reph p = firstn j p ++ reph ++ skipn j p.
Proof.
  intros p. rewrite model_reph_eq. eexists. split; [|reflexivity]. apply PeanoNat.Nat.le_sub_l.
Qed.

(** Placement, for every text in which each hasanta directly follows a consonant (which every
    orthographically well-formed text satisfies): the position is immediately before the final
    conjunct when p ends in conjunct, optional vowel (sign), optional chandrabindu, and the end of p
    otherwise (spec/C13_Spec.v [reph_spec]; the empty text gives just the reph). *)
Theorem C13_placement :
  forall p : str, wf_hasanta p = true -> model_reph p = reph_spec p.
Proof. exact reph_placement. Qed.

(** The same in the words of the property: p = q ++ conjunct ++ optional vowel (sign) ++ optional chandrabindu, the
    conjunct maximal (q does not end in hasanta): the reph goes immediately before the conjunct. *)
Theorem C13_placement_grammar :
  forall q cj v ch : str,
    conjunct cj -> (v = [] \/ exists x, v = [x] /\ is_vowel x = true) -> (ch = [] \/ ch = [B_CHANDRA]) ->
    (last q 0 =? B_HASANTA) = false -> wf_hasanta (q ++ cj ++ v ++ ch) = true ->
    model_reph (q ++ cj ++ v ++ ch) = q ++ reph ++ cj ++ v ++ ch.
Proof. intros q cj v ch H1 H2 H3 H4 H5. rewrite (reph_placement _ H5). apply reph_placement_grammar; assumption. Qed.

(** ... and the end of p otherwise (no final conjunct found): *)
Theorem C13_placement_otherwise : forall p : str, reph_span (rev p) = O -> reph_spec p = p ++ reph.
Proof. intros p H. unfold reph_spec. rewrite H, PeanoNat.Nat.sub_0_r, firstn_all, skipn_all. reflexivity. Qed.

(** With the option off (and old vowel-sign order off) the reph key simply appends its value. *)
Theorem C13_option_off_appends :
  forall o rb pend, o_old_reph o = false -> o_kar_order o = false ->
    process_key_value o rb pend reph = (push_str rb reph, pend).
Proof.
  intros o rb pend Hr Hk. rewrite pkv_is_rule_table by exact Hk. symmetry. apply pair_rev.
  rewrite rev_push_str. unfold rule_table. rewrite Hr. reflexivity.
Qed.

(** With the option on, the reph key is the model's reph insertion whatever else is set (the reph rule
    precedes every other rule but the zo-fola one, and never touches a waiting sign). *)
Theorem C13_option_on_is_reph :
  forall o rb pend, o_old_reph o = true ->
    process_key_value o rb pend reph = (insert_old_style_reph rb, pend).
Proof. intros o rb pend H. unfold process_key_value, pkv_gen. rewrite H. reflexivity. Qed.

Check (C13_conservation : forall p : str, exists j, (j <= length p)%nat /\ model_reph p = firstn j p ++ reph ++ skipn j p).
Check (C13_placement : forall p : str, wf_hasanta p = true -> model_reph p = reph_spec p).

(** Non-vacuity: the seven examples of the test-suite and the corner cases of the property text. *)
Example C13_nonvacuous :
  let k := B_K in let t := B_T in let h := B_HASANTA in
  wf_hasanta [k; B_AA_KAR; k; h; t; B_I_KAR; B_CHANDRA] = true /\
  reph_spec [k; B_AA_KAR; k; h; t; B_I_KAR; B_CHANDRA] = [k; B_AA_KAR; B_R; h; k; h; t; B_I_KAR; B_CHANDRA] /\
  model_reph [k; B_AA_KAR; k; B_CHANDRA] = [k; B_AA_KAR; B_R; h; k; B_CHANDRA] /\
  model_reph [] = [B_R; h] /\ reph_spec [] = [B_R; h] /\
  model_reph [k; B_AA_KAR; B_I] = [k; B_AA_KAR; B_I; B_R; h] /\
  model_reph [k; h; ZWNJ] = [k; h; ZWNJ; B_R; h] /\
  model_reph [B_U; B_T; h; ZWNJ; k] = [B_U; B_T; h; ZWNJ; B_R; h; k].
Proof. vm_compute. repeat split. Qed.

Print Assumptions C13_conservation.
Print Assumptions C13_placement.
Print Assumptions C13_placement_grammar.
Print Assumptions C13_option_off_appends.
Print Assumptions C13_option_on_is_reph.
