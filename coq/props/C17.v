(** Property C17: smart quotes curl only the quotes that wrap a word, and nothing else. *)
Require Import Riti.model.Base Riti.model.Split Riti.model.Rank Riti.model.Phonetic Riti.model.FixedSuggest
        Riti.model.TestOracle Riti.proofs.Base_Proof Riti.proofs.Rank_Proof Riti.proofs.Phonetic_Proof Riti.proofs.Fixed_Proof
        Riti.proofs.C17_Proof.

(** The quoter, for ALL parts: nothing for an empty word; otherwise exactly the straight quotes of the leading part
    become opening and those of the trailing part closing curly quotes; mapping curly quotes back restores the input. *)
Theorem C17_quoter_empty_word : forall p t, smart_quoter (p, [], t) = (p, [], t).
Proof. reflexivity. Qed.
Theorem C17_quoter_word : forall p w t, w <> [] -> smart_quoter (p, w, t) = (map curl_open p, w, map curl_close t).
Proof. exact smart_quoter_word. Qed.
Theorem C17_quoter_uncurl : forall p w t, no_curly p -> no_curly t ->
  let '(p', w', t') := smart_quoter (p, w, t) in map uncurl p' = p /\ w' = w /\ map uncurl t' = t.
Proof.
  intros p w t Hp Ht. destruct w as [|a w]; cbn [smart_quoter sp_pre sp_word sp_trail fst snd].
  - rewrite !map_fix by assumption. auto.
  - split; [apply uncurl_curled; auto | split; [reflexivity | apply uncurl_curled; auto]].
Qed.

(** Text that is only punctuation is left untouched: both methods return the identical result. *)
Theorem C17_only_punctuation_phonetic :
  forall (Q : oracles) c m uac sels term, sp_word (split term false) = [] ->
    suggest Q (with_smart c true) m uac sels term = suggest Q (with_smart c false) m uac sels term.
Proof.
  (* at the level of the model: the option enters [suggest] only through the quoter, which does nothing here *)
  intros Q c m uac sels term Hw. unfold suggest. cbn [c_smart with_smart c_ansi c_english].
  rewrite smart_quoter_no_word by exact Hw. reflexivity.
Qed.
Theorem C17_only_punctuation_fixed :
  forall (Q : oracles) c buffer typed, sp_word (split buffer true) = [] ->
    dictionary_suggestion Q (xwith_smart c true) buffer typed = dictionary_suggestion Q (xwith_smart c false) buffer typed.
Proof.
  intros Q c buffer typed Hw. rewrite !ds_eq, (ds_l3_no_word Q c buffer typed Hw). reflexivity.
Qed.

(** With a word: the dictionary part and the transliteration are the SAME items (same rank, same order) in both
    settings; only the wrapping differs, by the curling of the two outer parts. *)
Theorem C17_dictionary_part :
  forall (Q : oracles) c m uac term, sp_word (split term false) <> [] ->
    let pf := sg_pre Q (with_smart c false) term in let tf := sg_tr Q (with_smart c false) term in
    let core := swd_core Q m uac (sg_word Q (with_smart c false) term) in
    sg_l0 Q (with_smart c false) m uac term = (match pf, tf with [], [] => core | _, _ => map (wrap pf tf) core end) /\
    sg_l0 Q (with_smart c true) m uac term = (match pf, tf with [], [] => core | _, _ => map (wrap (map curl_open pf) (map curl_close tf)) core end).
Proof.
  intros Q c m uac term Hw. split; [reflexivity|]. destruct (sg_parts_on_off Q c term Hw) as (Ep & Ew & Et).
  rewrite sg_l0_eq, Ep, Ew, Et. destruct (sg_pre Q (with_smart c false) term), (sg_tr Q (with_smart c false) term); try reflexivity.
  symmetry. apply (wrap_match [] []).
Qed.

(** Phonetic method, the whole list, position by position, for EVERY dictionary, memo, user list, learned selections,
    option set and typed text with a word part - under [same_checks]: the four places where the code compares the
    raw typed text with something that is curled in one setting only (twice with the leading part, twice in the
    duplicate check against the list) come out the same.  Where they do not, the lists really differ: that is the
    open finding self-transliterating-word-in-quotes ([C17_same_length_refuted] below), so the proviso is exact.
    Each candidate with the option on is the candidate at the same position with it off: identical only if it is the
    raw typed text or the emoticon's emoji, otherwise the same core text with the same rank re-wrapped in the curled
    outer parts. *)
Theorem C17_phonetic_lists_correspond :
  forall (Q : oracles) c m uac sels term, sp_word (split term false) <> [] -> same_checks Q c m uac term ->
    let '(_, l_on, _, _) := suggest Q (with_smart c true) m uac sels term in
    let '(_, l_off, _, _) := suggest Q (with_smart c false) m uac sels term in
    Forall2 (curl_rel_id (phon_id Q term) (sg_pre Q (with_smart c false) term) (sg_tr Q (with_smart c false) term)) l_on l_off.
Proof. intros Q c m uac sels term Hw SC. rewrite !suggest_eq. apply curl_rel_id_sort, sg_l2_rel; assumption. Qed.

(** ... and the preselected index is the same, provided neither the raw text nor the emoticon's emoji happens to be
    the very text the learned selection asks for *)
Theorem C17_phonetic_same_preselection :
  forall (Q : oracles) c m uac sels term, sp_word (split term false) <> [] -> same_checks Q c m uac term ->
    (forall x b, x = term \/ emoticon Q term = Some x ->
       x <> sg_pre Q (with_smart c b) term ++ selected_text Q sels (sg_word Q (with_smart c false) term) ++ sg_tr Q (with_smart c b) term) ->
    let '(_, _, _, s_on) := suggest Q (with_smart c true) m uac sels term in
    let '(_, _, _, s_off) := suggest Q (with_smart c false) m uac sels term in
    s_on = s_off.
Proof.
  intros Q c m uac sels term Hw SC Hx. rewrite !suggest_eq, !prev_selection_eq.
  destruct (sg_parts_on_off Q c term Hw) as (Ep & Ew & Et). rewrite Ew.
  erewrite find_pos_rel; [reflexivity | | apply curl_rel_id_sort, sg_l2_rel; eassumption].
  intros a b [[-> I]|(s & Eb & ->)].
  - rewrite !(str_eqb_neq _ _ (Hx _ _ I)). reflexivity.
  - rewrite Ep, Et, rstr_set_rstr, Eb, !str_eqb_wrap. reflexivity.
Qed.

(** Fixed method, the whole list, position by position, for EVERY dictionary, emoji table, option set and composition
    with a word part: the candidate at each position with the option on is the candidate at the same position with it
    off - identical (the emoticon's emoji, the raw key text), or the same core text with the same rank, wrapped in the
    curled outer parts instead of the straight ones.  Length, order and preselection (always the first) follow. *)
Theorem C17_fixed_lists_correspond :
  forall (Q : oracles) c buffer typed, sp_word (split buffer true) <> [] ->
    Forall2 (curl_rel (sp_pre (split buffer true)) (sp_trail (split buffer true)))
            (dictionary_suggestion Q (xwith_smart c true) buffer typed) (dictionary_suggestion Q (xwith_smart c false) buffer typed).
Proof.
  intros Q c buffer typed Hw. apply (curl_rel_id_weaken (fun _ => True)). rewrite !ds_eq.
  change (x_english_on (xwith_smart c true)) with (x_english_on (xwith_smart c false)).
  destruct (_ && _); (apply Forall2_app; [apply Forall2_firstn, curl_rel_id_sort, ds_l3_rel, Hw | apply curl_rel_id_refl; repeat constructor]).
Qed.
Check C17_fixed_lists_correspond : forall (Q : oracles) c buffer typed, sp_word (split buffer true) <> [] ->
    Forall2 (fun a b => a = b \/ exists s, rstr b = sp_pre (split buffer true) ++ s ++ sp_trail (split buffer true) /\
                                          a = set_rstr b (map curl_open (sp_pre (split buffer true)) ++ s ++ map curl_close (sp_trail (split buffer true))))
            (dictionary_suggestion Q (xwith_smart c true) buffer typed) (dictionary_suggestion Q (xwith_smart c false) buffer typed).

(** Fixed method: the two lists always have the same length (same candidates, same cut, same English item). *)
Theorem C17_fixed_same_length :
  forall (Q : oracles) c buffer typed,
    length (dictionary_suggestion Q (xwith_smart c true) buffer typed) = length (dictionary_suggestion Q (xwith_smart c false) buffer typed).
Proof.
  intros Q c buffer typed. destruct (sp_word (split buffer true)) eqn:Hw; [rewrite C17_only_punctuation_fixed by exact Hw; reflexivity|].
  eapply Forall2_length, C17_fixed_lists_correspond. congruence.
Qed.

(** Sorting commutes with every re-wrapping that keeps the ranks, so order and positions coincide. *)
Theorem C17_sort_commutes_with_rewrapping : forall f l, keeps_rank f -> sort_ranks (map f l) = map f (sort_ranks l).
Proof.
  intros f l H. apply Forall2_eq_map, sort_Forall2; [intros a b a' b' -> ->; apply H | apply Forall2_map_l].
Qed.

(** The "same length" clause fails in the phonetic method in one corner (open known finding
    self-transliterating-word-in-quotes): a quoted word that converts to itself, English on. *)
Example C17_same_length_refuted :
  let Q := test_oracles in let c := cfg_all_on in
  let '(_, l_on, _, _) := suggest Q (with_smart c true) [] [] [] [34; 92] in
  let '(_, l_off, _, _) := suggest Q (with_smart c false) [] [] [] [34; 92] in
  length l_on = 2%nat /\ length l_off = 1%nat.
Proof. vm_compute. split; reflexivity. Qed.

Example C17_nonvacuous :
  let Q := test_oracles in let c := cfg_all_on in
  let '(_, l_on, _, s_on) := suggest Q (with_smart c true) [] [] [] [34; 107; 97; 34] in
  let '(_, l_off, _, s_off) := suggest Q (with_smart c false) [] [] [] [34; 107; 97; 34] in
  map (fun x => map uncurl (rstr x)) l_on = map rstr l_off /\ s_on = s_off /\ map rstr l_on <> map rstr l_off.
Proof. vm_compute. repeat split. discriminate. Qed.

(** the proviso holds for ordinary quoted words (here "ka" typed with both quotes, every option on) *)
Example C17_same_checks_somewhere : same_checks test_oracles cfg_all_on [] [] [34; 107; 97; 34].
Proof. constructor; vm_compute; reflexivity. Qed.

Print Assumptions C17_quoter_uncurl.
Print Assumptions C17_dictionary_part.
Print Assumptions C17_fixed_same_length.
Print Assumptions C17_only_punctuation_phonetic.

Print Assumptions C17_fixed_lists_correspond.
Print Assumptions C17_phonetic_lists_correspond.
Print Assumptions C17_phonetic_same_preselection.
