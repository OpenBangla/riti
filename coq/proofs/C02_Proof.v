(** Well-formedness of the returned suggestions (C02): the parts shared by the key and backspace theorems. *)
From Coq Require Import Lia.
Require Import Riti.model.Base Riti.model.Phonetic Riti.model.FixedSuggest Riti.proofs.Rank_Proof
        Riti.proofs.Phonetic_Proof Riti.proofs.Fixed_Proof.

Section C02.
Variable Q : oracles.

(** well-formedness of one returned suggestion; [echo] = the caller's selection was echoed *)
Definition full_ok (buf : str) (echo : option nat) (o : output) : Prop :=
  match o with
  | OFull aux l sel _ => l <> [] /\ aux = buf /\ ((sel < length l)%nat \/ echo = Some sel)
  | OSingle _ _ => True
  | OUnit => False
  end.

Lemma create_suggestion_ok c s : full_ok (p_buf s) None (snd (create_suggestion Q c s)).
Proof.
  destruct (c_suggest c) eqn:Hs; [rewrite create_suggestion_on by exact Hs | rewrite create_suggestion_off by exact Hs; exact I].
  pose proof (sort_nonempty _ (sg_l2_nonempty Q c (p_memo s) (p_uac s) (p_buf s))) as Hne.
  split; [intros E; apply map_eq_nil in E; contradiction|]. split; [reflexivity|].
  left. rewrite map_length. apply prev_selection_lt, Hne.
Qed.

(** the stored list is non-empty whenever it can be shown again *)
Definition x_inv (c : xcfg) (s : xstate) : Prop := x_rb s = [] \/ x_suggest c = false \/ x_sugg s <> [].

(** as [full_ok] without the echo clause: the fixed method never echoes a selection *)
Definition xfull_ok (buf : str) (o : output) : Prop :=
  match o with
  | OFull aux l sel _ => l <> [] /\ aux = buf /\ (sel < length l)%nat
  | OSingle _ _ => True
  | OUnit => False
  end.

Lemma x_create_ok c s :
  let r := x_create Q c s in xfull_ok (x_buffer (fst r)) (snd r) /\ x_inv c (fst r).
Proof.
  unfold x_create. destruct (x_suggest c) eqn:Hs; cbn [fst snd xfull_ok]; [|split; [exact I | right; left; exact Hs]].
  pose proof (ds_nonempty Q c (x_buffer s) (x_typed s)) as N. repeat split.
  - intros E. apply map_eq_nil in E. contradiction.
  - destruct (dictionary_suggestion Q c _ _); [congruence | cbn; lia].
  - right. right. exact N.
Qed.

End C02.
