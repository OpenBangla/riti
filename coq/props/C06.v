(** Property C06: ending a word erases every trace of it; the session flag tells the truth. *)
From Coq Require Import Lia.
Require Import Riti.model.Base Riti.model.Phonetic Riti.model.FixedSuggest Riti.model.TestOracle
        Riti.proofs.Phonetic_Proof Riti.proofs.C01_Proof Riti.proofs.Fixed_Proof Riti.proofs.C05_Proof
        Riti.proofs.C06_Proof.

(** Phonetic method.  After a commit, a finish request, a ctrl-backspace on a non-empty composition or a
    backspace that empties it, in ANY reachable state: no session is ongoing, and the state is related
    (relation R of C05, a bisimulation: theorem bisim_run) to a BRAND-NEW context over the same user list
    and learned selections - so every continuation behaves identically in both. *)
Theorem C06_phonetic_terminators :
  forall (Q : oracles) uac0 sels0 c s e c' s' o,
    Reach Q uac0 sels0 c s -> terminating s e -> p_step Q c s e = Some (c', s', o) ->
    p_ongoing s' = false /\ R Q c' s' (p_new (p_uac s') (p_sels s')).
Proof.
  intros Q uac0 sels0 c s e c' s' o Hr Ht Hs. apply idle_is_new.
  - eapply reach_good, reach_step; [exact Hr | | exact Hs]. destruct e; try exact I; contradiction.
  - destruct (p_step_buf Q c s e c' s' o Hs) as [-> | (_ & _ & ->)]; [|reflexivity].
    destruct e as [| [|] | | |]; try contradiction; try reflexivity. exact Ht.
Qed.

(** ... and the same after ANY backspace that returns an empty suggestion (nothing left, or what is left displays as
    nothing - a lone escape character while the candidate list is off), in any reachable state *)
Theorem C06_backspace_returning_empty :
  forall (Q : oracles) uac0 sels0 c s ctrl c' s' o,
    Reach Q uac0 sels0 c s -> p_step Q c s (PBackspace ctrl) = Some (c', s', o) -> out_empty o = true ->
    p_ongoing s' = false /\ R Q c' s' (p_new (p_uac s') (p_sels s')).
Proof.
  intros Q uac0 sels0 c s ctrl c' s' o Hr Hs Ho. apply idle_is_new.
  - exact (reach_good Q (reach_step Q uac0 sels0 c s (PBackspace ctrl) c' s' o Hr I Hs)).
  - cbn [p_step] in Hs. pose proof (p_backspace_buf Q c s ctrl) as H. destruct (p_backspace Q c s ctrl).
    injection Hs as _ <- <-. cbn [snd] in H. rewrite Ho in H. exact H.
Qed.

Theorem C06_related_states_behave_alike :
  forall (Q : oracles) h c s1 s2, R Q c s1 s2 -> hist_ok Q c s1 h ->
    match p_run Q c s1 h, p_run Q c s2 h with
    | Some (_, _, o1), Some (_, _, o2) => o1 = o2
    | None, None => True
    | _, _ => False
    end.
Proof. exact bisim_run. Qed.

Theorem C06_phonetic_idle_backspace :
  forall (Q : oracles) c s ctrl, p_buf s = [] -> p_backspace Q c s ctrl = (s, OSingle [] false).
Proof. intros Q c s ctrl Hb. unfold p_backspace. rewrite Hb. reflexivity. Qed.

Theorem C06_phonetic_flag : forall s, p_ongoing s = true <-> p_buf s <> [].
Proof. intros s. unfold p_ongoing. destruct (p_buf s); split; congruence. Qed.

(** Fixed method.  The state after every terminating event is [x_clear s], which is related to the initial
    state by [x_same] (equal text, raw keys and waiting sign; the stored list only matters while a text is
    composed); [x_same] is a bisimulation for in-contract histories, so nothing of the old word leaks. *)
Theorem C06_fixed_cleared_is_initial : forall c s, x_same c (x_clear s) x_init.
Proof. intros c s. apply x_same_idle. Qed.

Theorem C06_fixed_terminators_clear :
  forall (Q : oracles) L c s e, (e = XCommit \/ e = XFinish) -> x_step Q L c s e = (c, x_clear s, OUnit).
Proof. intros Q L c s e [-> | ->]; reflexivity. Qed.

Theorem C06_fixed_ctrl_backspace :
  forall (Q : oracles) c s, x_rb s <> [] -> x_backspace Q c s true = (x_clear s, OSingle [] false).
Proof. intros Q c s H. unfold x_backspace. destruct (x_rb s); [congruence | reflexivity]. Qed.

Theorem C06_fixed_bisimulation :
  forall (Q : oracles) L h c s1 s2, x_same c s1 s2 ->
    (fix ok c s h := match h with [] => True | e :: t => x_in_contract s e /\ let '(c', s', _) := x_step Q L c s e in ok c' s' t end) c s1 h ->
    x_run Q L c s1 h = x_run Q L c s2 h.
Proof.
  intros Q L. induction h as [|e t IH]; intros c s1 s2 HS Hok; cbn [x_run]; [reflexivity|].
  destruct Hok as [Hin Hrest]. pose proof (x_bisim_step Q L c s1 s2 e HS Hin) as H.
  destruct (x_step Q L c s1 e) as [[c1 s1'] o1], (x_step Q L c s2 e) as [[c2 s2'] o2]. destruct H as (-> & -> & HS').
  rewrite (IH c2 s1' s2' HS' Hrest), (x_same_ongoing c2 s1' s2' HS'). reflexivity.
Qed.

(** a backspace of the fixed method that returns an empty suggestion leaves no session behind - for every state *)
Theorem C06_fixed_backspace_returning_empty :
  forall (Q : oracles) c s ctrl, out_empty (snd (x_backspace Q c s ctrl)) = true -> x_ongoing (fst (x_backspace Q c s ctrl)) = false.
Proof.
  intros Q c s ctrl. rewrite x_backspace_eq. destruct (x_ongoing s) eqn:E; [|intros _; exact E].
  destruct (x_back_rb s); [rewrite orb_true_r; reflexivity|]. destruct ctrl; [reflexivity|].
  cbn [orb]. rewrite x_create_not_empty by discriminate. discriminate.
Qed.

Theorem C06_fixed_flag : forall s, x_ongoing s = true <-> (x_rb s <> [] \/ x_pend s <> None).
Proof.
  intros s. unfold x_ongoing. split.
  - intros H. apply orb_prop in H. destruct H as [H|H]; [left | right]; intros E; rewrite E in H; discriminate.
  - intros [H|H]; [destruct (x_rb s); [contradiction | reflexivity] | destruct (x_pend s); [apply orb_true_r | contradiction]].
Qed.

(** "Repeated backspaces always reach the idle state": from ANY state of either method (reachable or not), any
    sequence of plain / ctrl backspaces that is at least as long as the composition (phonetic: the typed text; fixed:
    the composed text plus one for a waiting vowel sign) ends with no session ongoing.  The bound is the worst case:
    every backspace on a non-idle state strictly shortens the composition ([p_backspace_shortens], [x_backspace_shortens]). *)
Theorem C06_backspaces_reach_idle :
  forall (Q : oracles) c ctrls s, (length (p_buf s) <= length ctrls)%nat -> p_ongoing (p_backspaces Q c s ctrls) = false.
Proof.
  intros Q c. induction ctrls as [|b t IH]; intros s Hl; cbn [p_backspaces].
  - apply PeanoNat.Nat.le_0_r, length_zero_iff_nil in Hl. unfold p_ongoing. rewrite Hl. reflexivity.
  - apply IH. pose proof (p_backspace_shortens Q c s b). cbn [length] in Hl. lia.
Qed.

Theorem C06_each_backspace_shortens :
  forall (Q : oracles) c s ctrl, p_buf s <> [] -> (length (p_buf (fst (p_backspace Q c s ctrl))) < length (p_buf s))%nat.
Proof.
  intros Q c s ctrl Hb. pose proof (p_backspace_shortens Q c s ctrl) as H.
  destruct (p_buf s); [congruence | apply le_n_S, H].
Qed.

Theorem C06_fixed_backspaces_reach_idle :
  forall (Q : oracles) c ctrls s, (x_measure s <= length ctrls)%nat -> x_ongoing (x_backspaces Q c s ctrls) = false.
Proof.
  intros Q c. induction ctrls as [|b t IH]; intros s Hl; cbn [x_backspaces].
  - unfold x_measure in Hl. unfold x_ongoing. destruct (x_rb s), (x_pend s); try reflexivity; cbn in Hl; inversion Hl.
  - apply IH. pose proof (x_backspace_shortens Q c s b). cbn [length] in Hl. lia.
Qed.

(** Non-vacuity: "ka", commit; the state is idle and related to a new context. *)
Example C06_nonvacuous :
  match p_run test_oracles cfg_all_on (p_new [] []) [PKey 41120 0; PKey 41110 0; PCommit 1] with
  | Some (_, s, _) => p_buf s = [] /\ p_sels s = [([107; 97], [128512])] /\ length (p_memo s) = 2%nat
  | None => False
  end.
Proof. vm_compute. repeat split. Qed.

(** the case behind C06_backspace_returning_empty (riti 40ee72a): the candidate list off, "`a", backspace - the lone escape character
    displays as nothing, the suggestion is empty, and the word is gone too *)
Definition escape_oracles : oracles :=
  {| conv := fun s => filter (fun ch => negb (ch =? 96)) (conv test_oracles s); hits := hits test_oracles; edist := edist test_oracles;
     ac_sys := ac_sys test_oracles; suffix_of := suffix_of test_oracles; emoticon := emoticon test_oracles; emoji_name := emoji_name test_oracles;
     dict := dict test_oracles; emoji_bn := emoji_bn test_oracles; bijoy := bijoy test_oracles |}.
Example C06_lone_escape_character :
  match p_run escape_oracles {| c_english := false; c_suggest := false; c_ansi := false; c_smart := false |} (p_new [] [])
              [PKey 41 0; PKey 41110 0; PBackspace false] with
  | Some (_, s, outs) => p_buf s = [] /\ last outs (OUnit, true) = (OSingle [] false, false)
  | None => False
  end.
Proof. vm_compute. split; reflexivity. Qed.

(** non-vacuity: "ka" then two backspaces - the first leaves a session, the second ends it *)
Example C06_backspaces_nonvacuous :
  match p_run test_oracles cfg_all_on (p_new [] []) [PKey 41120 0; PKey 41110 0] with
  | Some (_, s, _) => p_ongoing (p_backspaces test_oracles cfg_all_on s [false]) = true /\
                      p_ongoing (p_backspaces test_oracles cfg_all_on s [false; false]) = false
  | None => False
  end.
Proof. vm_compute. split; reflexivity. Qed.

Check C06_backspaces_reach_idle :
  forall (Q : oracles) c ctrls s, (length (p_buf s) <= length ctrls)%nat -> p_ongoing (p_backspaces Q c s ctrls) = false.

Print Assumptions C06_phonetic_terminators.
Print Assumptions C06_related_states_behave_alike.
Print Assumptions C06_fixed_bisimulation.
Print Assumptions C06_backspace_returning_empty.
Print Assumptions C06_fixed_backspace_returning_empty.
Print Assumptions C06_backspaces_reach_idle.
Print Assumptions C06_fixed_backspaces_reach_idle.
