(** Smart quotes (C17): what the quoter does to the three parts, and the item-wise correspondence [curl_rel_id] between
    the lists with the option on and off, stage by stage, for the fixed and for the phonetic method. *)
Require Import Riti.model.Base Riti.model.Split Riti.model.Rank Riti.model.Phonetic Riti.model.FixedSuggest
        Riti.proofs.Base_Proof Riti.proofs.Rank_Proof Riti.proofs.Phonetic_Proof Riti.proofs.Fixed_Proof.

Definition uncurl (c : N) : N := if (c =? 0x2018) || (c =? 0x2019) then QUOTE1 else if (c =? 0x201C) || (c =? 0x201D) then QUOTE2 else c.
Definition no_curly (s : str) : Prop := Forall (fun c => uncurl c = c) s.

(** [curl_open] and [curl_close] differ only in the curly quotes [a], [b] they put for the two straight ones *)
Lemma uncurl_curled a b s :
  uncurl a = QUOTE1 -> uncurl b = QUOTE2 -> no_curly s ->
  map uncurl (map (fun c => if c =? QUOTE1 then a else if c =? QUOTE2 then b else c) s) = s.
Proof.
  intros Ha Hb Hs. rewrite map_map. apply map_fix. eapply Forall_impl; [|exact Hs]. intros c Hc.
  destruct (N.eqb_spec c QUOTE1) as [->|_]; [exact Ha|]. destruct (N.eqb_spec c QUOTE2) as [->|_]; [exact Hb | exact Hc].
Qed.

Lemma smart_quoter_word p w t : w <> [] -> smart_quoter (p, w, t) = (map curl_open p, w, map curl_close t).
Proof. intros H. destruct w; [congruence | reflexivity]. Qed.

Lemma smart_quoter_no_word x : sp_word x = [] -> smart_quoter x = x.
Proof. intros H. unfold smart_quoter. rewrite H. reflexivity. Qed.

Lemma smart_quoter_parts x :
  sp_word x <> [] ->
  sp_pre (smart_quoter x) = map curl_open (sp_pre x) /\ sp_word (smart_quoter x) = sp_word x /\
  sp_trail (smart_quoter x) = map curl_close (sp_trail x).
Proof. intros H. destruct x as [[p w] t]. rewrite smart_quoter_word by exact H. auto. Qed.

Definition keeps_rank (f : rank -> rank) : Prop := forall a b, rank_le (f a) (f b) = rank_le a b.

Lemma retext_keeps_rank (g : str -> str) : keeps_rank (fun x => set_rstr x (g (rstr x))).
Proof. intros a b. apply rank_le_retext. Qed.

Lemma map_nil_iff {A B} (f : A -> B) l : map f l = [] <-> l = [].
Proof. destruct l; cbn; split; congruence. Qed.

Definition with_smart (c : pcfg) (b : bool) : pcfg := {| c_english := c_english c; c_suggest := c_suggest c; c_ansi := c_ansi c; c_smart := b |}.
Definition xwith_smart (c : xcfg) (b : bool) : xcfg :=
  {| x_opts := x_opts c; x_numpad := x_numpad c; x_suggest := x_suggest c; x_english := x_english c; x_ansi := x_ansi c; x_smart := b |}.

(** [a] (option on) against [b] (option off): the same item, or the same item with the same core text re-wrapped in
    the curled outer parts *)
Definition curl_rel (p t : str) (a b : rank) : Prop :=
  a = b \/ exists s, rstr b = p ++ s ++ t /\ a = set_rstr b (map curl_open p ++ s ++ map curl_close t).

(** the relation again, saying which items may be identical in both lists *)
Definition curl_rel_id (Id : rank -> Prop) (p t : str) (a b : rank) : Prop :=
  (a = b /\ Id b) \/ exists s, rstr b = p ++ s ++ t /\ a = set_rstr b (map curl_open p ++ s ++ map curl_close t).

Lemma curl_rel_id_weaken Id p t l l' : Forall2 (curl_rel_id Id p t) l l' -> Forall2 (curl_rel p t) l l'.
Proof. apply Forall2_impl. intros a b [[-> _]|H]; [left; reflexivity | right; exact H]. Qed.

(** related items differ in their text only, so the comparator cannot tell the two lists apart *)
Lemma curl_rel_id_le Id p t a b a' b' : curl_rel_id Id p t a b -> curl_rel_id Id p t a' b' -> rank_le a a' = rank_le b b'.
Proof.
  assert (T : forall x y, curl_rel_id Id p t x y -> exists s, x = set_rstr y s).
  { intros x y [[-> _]|(s & _ & ->)]; [exists (rstr y); symmetry; apply set_rstr_same | eauto]. }
  intros H H'. apply T in H, H'. destruct H as [s ->], H' as [s' ->]. apply rank_le_retext.
Qed.

Section Rel.
Variables (Id : rank -> Prop) (p t : str).
Let Rel := curl_rel_id Id p t.

Lemma curl_rel_id_sort l l' : Forall2 Rel l l' -> Forall2 Rel (sort_ranks l) (sort_ranks l').
Proof. apply sort_Forall2. apply curl_rel_id_le. Qed.

Lemma curl_rel_id_wrap l : Forall2 Rel (map (wrap (map curl_open p) (map curl_close t)) l) (map (wrap p t) l).
Proof.
  induction l as [|x r IH]; constructor; [|exact IH]. right. exists (rstr x). split; [apply rstr_wrap|].
  unfold wrap. rewrite set_rstr_twice. reflexivity.
Qed.

Lemma curl_rel_id_emoji_ranked es : forall r, Forall2 Rel (emoji_ranked (map curl_open p) (map curl_close t) es r) (emoji_ranked p t es r).
Proof. induction es as [|e es IH]; intros r; cbn [emoji_ranked]; constructor; [right; exists e; split; reflexivity | apply IH]. Qed.

Lemma curl_rel_id_refl l : Forall Id l -> Forall2 Rel l l.
Proof. induction 1; constructor; [left; split; [reflexivity | assumption] | assumption]. Qed.

Lemma curl_rel_id_push_checked x l l' :
  Id x -> Forall2 Rel l l' -> rank_mem x l = rank_mem x l' -> Forall2 Rel (push_checked l x) (push_checked l' x).
Proof.
  intros I F E. rewrite !push_checked_app, E. apply Forall2_app; [exact F|].
  destruct (rank_mem x l'); repeat constructor. exact I.
Qed.
End Rel.

Section C17.
Variable Q : oracles.

Lemma ds_parts_on_off c buffer :
  sp_word (split buffer true) <> [] ->
  ds_first (xwith_smart c true) buffer = map curl_open (ds_first (xwith_smart c false) buffer) /\
  ds_word (xwith_smart c true) buffer = ds_word (xwith_smart c false) buffer /\
  ds_last (xwith_smart c true) buffer = map curl_close (ds_last (xwith_smart c false) buffer).
Proof.
  (* with the option on, [ds_sp] is the quoter applied to [ds_sp] with it off: by computation *)
  apply (smart_quoter_parts (ds_sp (xwith_smart c false) buffer)).
Qed.

Lemma ds_sp_no_word c buffer :
  sp_word (split buffer true) = [] -> ds_sp (xwith_smart c true) buffer = ds_sp (xwith_smart c false) buffer.
Proof. intros Hw. apply smart_quoter_no_word, Hw. Qed.

Lemma ds_l3_no_word c buffer typed :
  sp_word (split buffer true) = [] -> ds_l3 Q (xwith_smart c true) buffer typed = ds_l3 Q (xwith_smart c false) buffer typed.
Proof.
  (* delta and beta only: [unfold] would also expand the three parts into every place that uses them *)
  intros Hw. cbv delta [ds_l3 ds_first ds_word ds_last] beta. rewrite (ds_sp_no_word c buffer Hw). reflexivity.
Qed.

(** for any [Id]: every pair here is re-wrapped, none is identical; the callers choose [Id] for the items they add *)
Lemma ds_l2_rel Id c buffer :
  sp_word (split buffer true) <> [] ->
  Forall2 (curl_rel_id Id (ds_first (xwith_smart c false) buffer) (ds_last (xwith_smart c false) buffer))
          (ds_l2 Q (xwith_smart c true) buffer) (ds_l2 Q (xwith_smart c false) buffer).
Proof.
  intros Hw. destruct (ds_parts_on_off c buffer Hw) as (Ef & Ew & El). unfold ds_l2. rewrite Ef, Ew, El. apply curl_rel_id_wrap.
Qed.

Lemma ds_l3_rel c buffer typed :
  sp_word (split buffer true) <> [] ->
  Forall2 (curl_rel_id (fun _ => True) (ds_first (xwith_smart c false) buffer) (ds_last (xwith_smart c false) buffer))
          (ds_l3 Q (xwith_smart c true) buffer typed) (ds_l3 Q (xwith_smart c false) buffer typed).
Proof.
  intros Hw. pose proof (ds_l2_rel (fun _ => True) c buffer Hw) as F2. destruct (ds_parts_on_off c buffer Hw) as (Ef & Ew & El).
  rewrite !ds_l3_eq, Ew. cbn [x_ansi xwith_smart]. destruct (x_ansi c); [exact F2|].
  destruct (emoticon Q typed); [apply Forall2_app; [exact F2 | apply curl_rel_id_refl; repeat constructor]|].
  destruct (emoji_bn Q _); [|exact F2]. apply Forall2_app; [exact F2|]. rewrite Ef, El. apply curl_rel_id_emoji_ranked.
Qed.

Lemma sg_parts_on_off c term :
  sp_word (split term false) <> [] ->
  sg_pre Q (with_smart c true) term = map curl_open (sg_pre Q (with_smart c false) term) /\
  sg_word Q (with_smart c true) term = sg_word Q (with_smart c false) term /\
  sg_tr Q (with_smart c true) term = map curl_close (sg_tr Q (with_smart c false) term).
Proof. (* as [ds_parts_on_off] *) apply (smart_quoter_parts (sg_sp Q (with_smart c false) term)). Qed.

Lemma l0_same_length c m uac term :
  length (sg_l0 Q (with_smart c true) m uac term) = length (sg_l0 Q (with_smart c false) m uac term).
Proof. rewrite !sg_l0_eq, !map_length, !sg_word_is_split. reflexivity. Qed.

(** where the two settings could part: the comparison of the raw text with the leading part (which is curled in one
    setting; the code makes it twice) and the two duplicate checks of the raw text against the list (whose texts are
    curled in one setting) *)
Record same_checks (c : pcfg) (m : memo) (uac : list (str * str)) (term : str) : Prop := {
  sc_pre : str_eqb term (sg_pre Q (with_smart c true) term) = str_eqb term (sg_pre Q (with_smart c false) term);
  sc_l0 : rank_mem (RLast term 1) (sg_l0 Q (with_smart c true) m uac term) = rank_mem (RLast term 1) (sg_l0 Q (with_smart c false) m uac term);
  sc_l1 : rank_mem (RLast term 3) (fst (sg_l1 Q (with_smart c true) m uac term)) = rank_mem (RLast term 3) (fst (sg_l1 Q (with_smart c false) m uac term))
}.

(** the items that may be identical in both phonetic lists: the raw typed text (pushed as Last 1 or Last 3) and the
    emoticon's emoji; told by their text, which is all the correspondence keeps of an item *)
Definition phon_id (term : str) (b : rank) : Prop := rstr b = term \/ emoticon Q term = Some (rstr b).

(** the dictionary part and the transliteration: the same items, wrapped in the curled outer parts *)
Lemma sg_l0_rel Id c m uac term :
  sp_word (split term false) <> [] ->
  Forall2 (curl_rel_id Id (sg_pre Q (with_smart c false) term) (sg_tr Q (with_smart c false) term))
          (sg_l0 Q (with_smart c true) m uac term) (sg_l0 Q (with_smart c false) m uac term).
Proof. intros Hw. destruct (sg_parts_on_off c term Hw) as (Ep & Ew & Et). rewrite !sg_l0_eq, Ep, Ew, Et. apply curl_rel_id_wrap. Qed.

(** the emoji step: the raw text (unless it is the leading part) and the emoticon's emoji, or the emoji of the word *)
Lemma sg_l1_rel c m uac term :
  sp_word (split term false) <> [] -> same_checks c m uac term ->
  let (l, a) := sg_l1 Q (with_smart c true) m uac term in let (l', a') := sg_l1 Q (with_smart c false) m uac term in
  Forall2 (curl_rel_id (phon_id term) (sg_pre Q (with_smart c false) term) (sg_tr Q (with_smart c false) term)) l l' /\ a = a'.
Proof.
  intros Hw [Hp H0 _]. pose proof (sg_l0_rel (phon_id term) c m uac term Hw) as F0.
  destruct (sg_parts_on_off c term Hw) as (Ep & Ew & Et).
  unfold sg_l1. cbn [c_ansi with_smart]. destruct (c_ansi c); [split; [exact F0 | reflexivity]|].
  destruct (emoticon Q term) as [e|] eqn:Ee.
  - split; [|reflexivity]. apply Forall2_app; [|apply curl_rel_id_refl; constructor; [right; exact Ee | constructor]].
    rewrite Hp. destruct (str_eqb term (sg_pre Q (with_smart c false) term)); [exact F0|].
    apply curl_rel_id_push_checked; [left; reflexivity | exact F0 | exact H0].
  - rewrite Ew. destruct (emoji_name Q _) as [es|]; (split; [|reflexivity]); [|exact F0].
    apply Forall2_app; [exact F0|]. rewrite Ep, Et. apply curl_rel_id_emoji_ranked.
Qed.

(** the English step: the raw text once more, unless it was added before or is the leading part *)
Lemma sg_l2_rel c m uac term :
  sp_word (split term false) <> [] -> same_checks c m uac term ->
  Forall2 (curl_rel_id (phon_id term) (sg_pre Q (with_smart c false) term) (sg_tr Q (with_smart c false) term))
          (sg_l2 Q (with_smart c true) m uac term) (sg_l2 Q (with_smart c false) m uac term).
Proof.
  intros Hw SC. pose proof (sg_l1_rel c m uac term Hw SC) as F1. destruct SC as [Hp _ H1]. unfold sg_l2.
  destruct (sg_l1 Q (with_smart c true) m uac term) as [l a], (sg_l1 Q (with_smart c false) m uac term) as [l' a'].
  destruct F1 as [F1 <-]. rewrite Hp. change (english_on (with_smart c true)) with (english_on (with_smart c false)).
  destruct (_ && _); [apply curl_rel_id_push_checked; [left; reflexivity | exact F1 | exact H1] | exact F1].
Qed.

(** every candidate with the option on is the candidate at the same position with it off, re-wrapped in the curled
    outer parts, or identical (the raw typed text, the emoticon's emoji) *)
Lemma phon_lists_correspond c m uac sels term :
  sp_word (split term false) <> [] -> same_checks c m uac term ->
  let '(_, l_on, _, _) := suggest Q (with_smart c true) m uac sels term in
  let '(_, l_off, _, _) := suggest Q (with_smart c false) m uac sels term in
  Forall2 (curl_rel (sg_pre Q (with_smart c false) term) (sg_tr Q (with_smart c false) term)) l_on l_off.
Proof.
  intros Hw SC. rewrite !suggest_eq. apply (curl_rel_id_weaken (phon_id term)), curl_rel_id_sort, sg_l2_rel; assumption.
Qed.

(** the text the selection looks for (a function of the word and the learned selections only) *)
Definition selected_text (sels : list (str * str)) (w : str) : str :=
  match assocS w sels with
  | Some item => item
  | None => if Nat.leb 2 (length w) then sel_by_suffix Q sels w (seq 1 (length w - 1)) else []
  end.

Lemma prev_selection_eq sels l pre w tr :
  prev_selection Q sels l pre w tr = match find_pos (pre ++ selected_text sels w ++ tr) l 0 with Some i => i | None => 0%nat end.
Proof. reflexivity. Qed.

End C17.
