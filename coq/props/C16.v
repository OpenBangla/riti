(** Property C16: ANSI mode never offers what it cannot encode (riti's side); the encoder itself is third-party. *)
Require Import Riti.model.Base Riti.model.Rank Riti.model.Phonetic Riti.model.FixedSuggest Riti.model.TestOracle
        Riti.proofs.Rank_Proof Riti.proofs.Phonetic_Proof Riti.proofs.C05_Proof Riti.proofs.Lists_Proof
        Riti.proofs.Fixed_Proof.

(** Phonetic method, ANSI on, whatever the English option: every candidate is a direct candidate or the
    transliteration ([plain]: no Emoji item, no emoticon literal Last 1, no raw English Last 3) - for every oracle,
    typed text, store and transparent memo. *)
Theorem C16_phonetic_no_emoji_no_english :
  forall (Q : oracles) c m uac sels term, c_ansi c = true -> I1 Q uac m ->
    let '(_, l, _, _) := suggest Q c m uac sels term in Forall (fun x => plain x = true) l.
Proof.
  intros Q c m uac sels term Ha H1. rewrite suggest_eq. apply Forall_forall. intros x Hx.
  apply (proj1 (sort_In _ _)) in Hx. rewrite sg_l2_ansi in Hx by exact Ha. exact (sg_l0_plain Q c m uac term x H1 Hx).
Qed.

(** Fixed method, ANSI on: only the composed text and dictionary words. *)
Theorem C16_fixed_no_emoji_no_english :
  forall (Q : oracles) c buffer typed x, x_ansi c = true -> In x (dictionary_suggestion Q c buffer typed) -> is_direct x = true.
Proof.
  intros Q c buffer typed x Ha Hx. pose proof (ds_items Q c buffer typed) as F. rewrite Forall_forall in F.
  destruct (F x Hx) as [x' -> | table d x' _ _ _ d' -> | s r Hf | He _]; try reflexivity; try congruence.
  unfold x_english_on in He. rewrite Ha, andb_false_r in He. discriminate.
Qed.

(** The read-out flag of every returned suggestion is the configuration's at creation time. *)
Theorem C16_flag_is_config :
  forall (Q : oracles) c s, c_suggest c = true -> exists l sel, snd (create_suggestion Q c s) = OFull (p_buf s) l sel (c_ansi c).
Proof. intros Q c s H. rewrite create_suggestion_on by exact H. eexists _, _. reflexivity. Qed.
Theorem C16_flag_is_config_lonely :
  forall (Q : oracles) c s, c_suggest c = false -> snd (create_suggestion Q c s) = OSingle (suggest_only_phonetic Q (p_buf s)) (c_ansi c).
Proof. intros Q c s H. rewrite create_suggestion_off by exact H. reflexivity. Qed.

(** Reading a candidate out: with the flag the text is passed through the encoder, without it unchanged
    (src/suggestion.rs get_pre_edit_text).  That the encoder is total and leaves no Bengali-block code point is a
    statement about poriborton: tested on every candidate of every stream and on all dictionary words (thorough). *)
Definition pre_edit (Q : oracles) (ansi : bool) (candidate : str) : str := if ansi then bijoy Q candidate else candidate.
Theorem C16_readout : forall Q s, pre_edit Q false s = s /\ pre_edit Q true s = bijoy Q s.
Proof. intros. split; reflexivity. Qed.

Example C16_nonvacuous :
  let c := {| c_english := true; c_suggest := true; c_ansi := true; c_smart := false |} in
  let '(_, l, _, _) := suggest test_oracles c [] [] [] [107; 97] in
  map rstr l = [[2469]; [2453; 2494]; [2453; 2494; 2433]; [2454; 2494]; [2463; 2453]].
Proof. vm_compute. reflexivity. Qed.

Print Assumptions C16_phonetic_no_emoji_no_english.
Print Assumptions C16_fixed_no_emoji_no_english.
