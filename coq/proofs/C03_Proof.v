(** Words of letters and digits wrapped in the listed punctuation are split as the property says (C03). *)
From Coq Require Import Lia ZifyBool.
Require Import Riti.model.Base Riti.model.Chars Riti.model.Split Riti.proofs.Base_Proof Riti.proofs.TablesAgree.

Definition alnum (c : N) : bool := ((48 <=? c) && (c <=? 57)) || ((65 <=? c) && (c <=? 90)) || ((97 <=? c) && (c <=? 122)).

(* 48 .. 122: from '0' to 'z' *)
Lemma alnum_sweep :
  forallb (fun c => negb (alnum c) || (negb (is_meta c) && negb (c =? BACKTICK) && negb (c =? COLON))) (rangeN 48 75) = true.
Proof. vm_compute. reflexivity. Qed.

Lemma alnum_not_punct c : alnum c = true -> is_meta c = false /\ (c =? BACKTICK) = false /\ (c =? COLON) = false.
Proof.
  intros H. pose proof alnum_sweep as S. rewrite forallb_forall in S.
  assert (Hin : In c (rangeN 48 75)).
  { apply rangeN_spec. unfold alnum in H. (* boolean comparisons: ZifyBool *) lia. }
  specialize (S c Hin). rewrite H in S.
  apply andb_prop in S. destruct S as [S H3]. apply andb_prop in S. destruct S as [H1 H2].
  apply negb_true_iff in H1, H2, H3. auto.
Qed.

(** the punctuation the property lists: META of src/utility.rs without the danda, in META's order *)
Definition punct_chars : list N := [45;93;126;33;64;35;37;38;42;40;41;95;61;43;91;123;125;39;34;59;60;62;47;63;124;46;44].
Lemma punct_is_meta : forallb is_meta punct_chars = true. Proof. vm_compute. reflexivity. Qed.
Lemma punct_str_meta s : forallb (fun c => mem c punct_chars) s = true -> forallb is_meta s = true.
Proof. intros H. rewrite forallb_forall in *. intros c Hc. exact (forallb_mem punct_is_meta (H c Hc)). Qed.
