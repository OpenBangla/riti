(** Property C11: re-configuring a live context is equivalent to creating a new one. *)
Require Import Riti.model.Base Riti.model.Phonetic Riti.model.FixedSuggest Riti.model.TestOracle
        Riti.proofs.C05_Proof Riti.proofs.C06_Proof.

(** Phonetic method, same layout: after update_engine on an idle context - with any new option set and
    with or without a reload of the user auto-correct list ([reload = Some u]: the file changed or vanished) -
    the state is related (bisimulation R of C05) to a context NEWLY CREATED with the new configuration over
    the same files: every later event behaves identically, including words composed before the edit. *)
Theorem C11_update_is_new :
  forall (Q : oracles) uac0 sels0 c s c' reload,
    Reach Q uac0 sels0 c s -> p_buf s = [] ->
    R Q c' (p_update s reload) (p_new (match reload with Some u => u | None => p_uac s end) (p_sels s)).
Proof.
  intros Q uac0 sels0 c s c' reload Hr Hb. split; [destruct reload; repeat split; exact Hb|].
  split; [apply (good_update Q c), Hb; eapply reach_good, Hr | apply good_new].
Qed.

(** Fixed method, same layout: the method keeps no option; every event reads the configuration it is given,
    so an option change while idle yields exactly the state of a new context ([x_same] bisimulation, C06). *)
Theorem C11_fixed_update :
  forall (Q : oracles) L c c' s, x_rb s = [] -> x_pend s = None -> x_typed s = [] ->
    let '(c1, s1, _) := x_step Q L c s (XUpdate c') in c1 = c' /\ x_same c' s1 x_init.
Proof.
  intros Q L c c' s H1 H2 H3. unfold x_same. cbn. repeat split; auto. congruence.
Qed.

(** A changed layout replaces the method object by a new one (src/context.rs update_engine); the harness checks
    this case by differential replay against a fresh context (stream c11). *)

(** Non-vacuity: k, a, finish, update_engine with an emptied user list, k, a again: the user list is empty and
    the memo was built anew ("k", "ka"). *)
Example C11_nonvacuous :
  match p_run test_oracles cfg_all_on (p_new [([107; 97], [120])] []) [PKey 41120 0; PKey 41110 0; PFinish; PUpdate cfg_all_on (Some []); PKey 41120 0; PKey 41110 0] with
  | Some (_, s, outs) => p_uac s = [] /\ length (p_memo s) = 2%nat
  | None => False
  end.
Proof. vm_compute. split; reflexivity. Qed.

Print Assumptions C11_update_is_new.
Print Assumptions C11_fixed_update.
