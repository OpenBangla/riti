(** History independence of the phonetic suggestions (C05), and with it C06 (phonetic part) and C11. *)
From Coq Require Import Lia.
Require Import Riti.model.Base Riti.model.Split Riti.model.Rank Riti.model.Layout Riti.model.Phonetic
        Riti.proofs.Base_Proof Riti.proofs.Split_Proof Riti.proofs.Phonetic_Proof.

Section C05.
Variable Q : oracles.

Definition present (m : memo) (k : str) : bool := match assocS k m with Some _ => true | None => false end.
(** [k] can be the word part of a split *)
Definition wordlike (k : str) : Prop := exists b, sp_word (split b false) = k.

(** memo transparency: every entry is the pure function [direct] of its key *)
Definition I1 (uac : list (str * str)) (m : memo) : Prop := forall k v, assocS k m = Some v -> v = direct Q uac k.
Definition I2 (m : memo) : Prop := forall k, present m k = true -> wordlike k.
(** prefix closure: the word part of every (strict / non-strict) non-empty prefix of the composition is memoised *)
Definition I3 (strict : bool) (m : memo) (buf : str) : Prop :=
  forall j, (0 < j)%nat -> (if strict then (j < length buf)%nat else (j <= length buf)%nat) ->
            present m (sp_word (split (firstn j buf) false)) = true.

Definition upd (m : memo) (uac : list (str * str)) (w : str) : memo :=
  match assocS w m with Some _ => m | None => m ++ [(w, direct Q uac w)] end.

Lemma swd_core_upd m uac w : swd_core Q m uac w = push_checked (fold_left push_checked (add_suffix Q (upd m uac w) w) []) (RLast (conv Q w) 2).
Proof. reflexivity. Qed.

Lemma sg_m_is_upd c m uac term : sg_m Q c m uac term = upd m uac (sp_word (split term false)).
Proof. (* [sg_m] unfolds to the memo that suggestion_with_dict returns, which is [upd] *) rewrite <- (sg_word_is_split Q c). reflexivity. Qed.

Lemma upd_lookup m uac w k :
  assocS k (upd m uac w) = match assocS k m with Some v => Some v | None => if str_eqb k w then Some (direct Q uac w) else None end.
Proof.
  unfold upd. destruct (assocS w m) eqn:E; [|apply assocS_snoc].
  destruct (assocS k m) eqn:Ek; [reflexivity|]. destruct (str_eqb k w) eqn:Ekw; [|reflexivity].
  apply str_eqb_eq in Ekw. congruence.
Qed.

Lemma present_upd m uac w k : present (upd m uac w) k = present m k || str_eqb k w.
Proof. unfold present. rewrite upd_lookup. destruct (assocS k m); [reflexivity | destruct (str_eqb k w); reflexivity]. Qed.

Lemma present_upd_mono m uac w k : present m k = true -> present (upd m uac w) k = true.
Proof. intros H. rewrite present_upd, H. reflexivity. Qed.

Lemma present_upd_same m uac w : present (upd m uac w) w = true.
Proof. rewrite present_upd, str_eqb_refl. apply orb_true_r. Qed.

Lemma upd_I1 m uac w : I1 uac m -> I1 uac (upd m uac w).
Proof.
  intros H k v. rewrite upd_lookup. destruct (assocS k m) eqn:Ek; [rewrite <- Ek; apply H|].
  destruct (str_eqb k w) eqn:Ekw; [|discriminate]. apply str_eqb_eq in Ekw. congruence.
Qed.

Lemma upd_I2 m uac w : I2 m -> wordlike w -> I2 (upd m uac w).
Proof.
  intros H Hw k. rewrite present_upd. intros X. apply orb_prop in X.
  destruct X as [X|X]; [apply H, X | apply str_eqb_eq in X; subst; exact Hw].
Qed.

Lemma I1_lookup uac m k : I1 uac m -> assocS k m = if present m k then Some (direct Q uac k) else None.
Proof. intros H. unfold present. destruct (assocS k m) eqn:E; [rewrite (H _ _ E)|]; reflexivity. Qed.

(** A proper non-empty prefix [k] of the current word is memoised exactly when it can be a word part at all:
    the invariants force it in then (it was the word part when the composition ended in it), and keep it out otherwise. *)
Lemma prefix_lookup uac m buf i :
  let w := sp_word (split buf false) in
  I2 m -> I3 true m buf -> (1 <= i < length w)%nat ->
  present (upd m uac w) (firstn i w) = true <-> wordlike (firstn i w).
Proof.
  cbn zeta. intros H2 H3 Hi. split.
  - apply upd_I2; [exact H2 | exists buf; reflexivity].
  - intros [b Hb]. apply present_upd_mono. specialize (H3 (length (sp_pre (split buf false)) + i)%nat).
    rewrite (split_word_prefix buf false b i) in H3; [|lia | exact Hb].
    pose proof (f_equal (@length _) (split_concat buf false)) as L. rewrite !app_length in L. apply H3; lia.
Qed.

(** the lookups that the suffix step makes agree in any two memos satisfying the invariants *)
Lemma prefix_lookup_eq uac m1 m2 buf i :
  let w := sp_word (split buf false) in
  I1 uac m1 -> I1 uac m2 -> I2 m1 -> I2 m2 -> I3 true m1 buf -> I3 true m2 buf ->
  (1 <= i < length w)%nat ->
  assocS (firstn i w) (upd m1 uac w) = assocS (firstn i w) (upd m2 uac w).
Proof.
  cbn zeta. intros H11 H12 H21 H22 H31 H32 Hi. rewrite !(I1_lookup uac) by (apply upd_I1; assumption).
  (* both memos hold the prefix exactly when it can be a word part *)
  rewrite (eq_true_iff_eq _ _ (iff_trans (prefix_lookup uac m1 buf i H21 H31 Hi) (iff_sym (prefix_lookup uac m2 buf i H22 H32 Hi)))).
  reflexivity.
Qed.

(** the suffix step reads the memo at the word and at its proper prefixes *)
Lemma add_suffix_ext m1 m2 w :
  assocS w m1 = assocS w m2 ->
  (forall i, (1 <= i < length w)%nat -> assocS (firstn i w) m1 = assocS (firstn i w) m2) ->
  add_suffix Q m1 w = add_suffix Q m2 w.
Proof.
  intros Hw Hp. unfold add_suffix. rewrite Hw. f_equal. destruct (Nat.ltb 2 (length w)); [|reflexivity].
  rewrite !flat_map_concat_map. f_equal. apply map_ext_in. intros i Hi. apply in_seq in Hi.
  unfold suffix_items. rewrite Hp by lia. reflexivity.
Qed.

Lemma sg_l2_memo c m1 m2 uac buf :
  I1 uac m1 -> I1 uac m2 -> I2 m1 -> I2 m2 -> I3 true m1 buf -> I3 true m2 buf ->
  sg_l2 Q c m1 uac buf = sg_l2 Q c m2 uac buf.
Proof.
  intros H11 H12 H21 H22 H31 H32.
  assert (E : sg_l0 Q c m1 uac buf = sg_l0 Q c m2 uac buf); [|unfold sg_l2, sg_l1; rewrite E; reflexivity].
  rewrite !sg_l0_eq, sg_word_is_split, !swd_core_upd. set (w := sp_word (split buf false)).
  rewrite (add_suffix_ext (upd m1 uac w) (upd m2 uac w)); [reflexivity | |intros i Hi; apply prefix_lookup_eq; assumption].
  rewrite !(I1_lookup uac), !present_upd_same by (apply upd_I1; assumption). reflexivity.
Qed.

(** ** the invariant of every reachable state, and the bisimulation

    [Inv strict s] is I1-I3 for the memo of [s]; a lookup needs it with [strict = true] (the proper prefixes of the text
    being looked up) and leaves it with [strict = false] (the text itself is memoised now).  [Inv2 c] is [Inv false]
    with the prefix clause waived while the candidate list is off (then nothing is memoised).  [Good c] adds [V]: what
    a commit would read is what the list for the current text holds.  [R c] relates two states with the same text,
    user list and selections that are both [Good c]: it carries the invariant on both sides, so [R c s s] is [Good c s]. *)
Definition Inv (strict : bool) (s : pstate) : Prop :=
  I1 (p_uac s) (p_memo s) /\ I2 (p_memo s) /\ I3 strict (p_memo s) (p_buf s).

(** what two states must share for all their future outputs to coincide *)
Definition same_core (s1 s2 : pstate) : Prop := p_buf s1 = p_buf s2 /\ p_uac s1 = p_uac s2 /\ p_sels s1 = p_sels s2.
Definition same_view (s1 s2 : pstate) : Prop := p_sugg s1 = p_sugg s2 /\ p_affix s1 = p_affix s2 /\ p_prev s1 = p_prev s2.

Lemma I3_weaken m buf : I3 false m buf -> I3 true m buf.
Proof. intros H j Hj Hl. apply H; [exact Hj | lia]. Qed.

Lemma create_suggestion_Inv c s : c_suggest c = true -> Inv true s -> Inv false (fst (create_suggestion Q c s)).
Proof.
  intros Hs (X1 & X2 & X3). rewrite create_suggestion_on by exact Hs. unfold Inv. cbn [fst p_uac p_memo p_buf].
  rewrite sg_m_is_upd. split; [apply upd_I1; exact X1|]. split; [apply upd_I2; [exact X2 | exists (p_buf s); reflexivity]|].
  intros j Hj Hle. destruct (PeanoNat.Nat.eq_dec j (length (p_buf s))) as [->|E].
  - rewrite firstn_all. apply present_upd_same.
  - apply present_upd_mono, X3; [exact Hj | lia].
Qed.

(** the suggestion for the current composition is a function of the surviving text, the options, the
    user list and the learned selections - whatever else happened to the two contexts before *)
Lemma create_suggestion_same c s1 s2 :
  c_suggest c = true -> same_core s1 s2 -> Inv true s1 -> Inv true s2 ->
  snd (create_suggestion Q c s1) = snd (create_suggestion Q c s2)
  /\ same_core (fst (create_suggestion Q c s1)) (fst (create_suggestion Q c s2))
  /\ same_view (fst (create_suggestion Q c s1)) (fst (create_suggestion Q c s2))
  /\ Inv false (fst (create_suggestion Q c s1)) /\ Inv false (fst (create_suggestion Q c s2)).
Proof.
  intros Hs (Hb & Hu & Hl) J1 J2. pose proof J1 as (A1 & A2 & A3). pose proof J2 as (B1 & B2 & B3).
  (* the equation for [s2] in the terms of [s1]: only the memo differs *)
  pose proof (create_suggestion_on Q c s2 Hs) as E2. rewrite <- Hb, <- Hu in *.
  rewrite <- Hl, (sg_l2_memo c (p_memo s2) (p_memo s1) (p_uac s1) (p_buf s1)) in E2 by assumption.
  split; [|split; [|split]].
  1-3: rewrite E2, (create_suggestion_on Q c s1 Hs); repeat split.
  split; apply create_suggestion_Inv; assumption.
Qed.

Definition Inv2 (c : pcfg) (s : pstate) : Prop :=
  I1 (p_uac s) (p_memo s) /\ I2 (p_memo s) /\ (c_suggest c = true -> I3 false (p_memo s) (p_buf s)).
Definition V (c : pcfg) (s : pstate) : Prop :=
  p_buf s <> [] -> c_suggest c = true -> same_view s (fst (create_suggestion Q c s)).
Definition Good (c : pcfg) (s : pstate) : Prop := Inv2 c s /\ V c s.

Definition R (c : pcfg) (s1 s2 : pstate) : Prop := same_core s1 s2 /\ Good c s1 /\ Good c s2.

(** with nothing composed, or with the candidate list off, only the memo clauses are left *)
Lemma good_trivial c s : (c_suggest c = true -> p_buf s = []) -> I1 (p_uac s) (p_memo s) -> I2 (p_memo s) -> Good c s.
Proof.
  intros Hb X1 X2. split; [|intros H Hs; elim H; exact (Hb Hs)].
  split; [exact X1|]. split; [exact X2|]. intros Hs j Hj Hl. rewrite (Hb Hs) in Hl. cbn in Hl. lia.
Qed.

Lemma good_idle c s : p_buf s = [] -> I1 (p_uac s) (p_memo s) -> I2 (p_memo s) -> Good c s.
Proof. intros Hb. apply good_trivial. intros _. exact Hb. Qed.

Lemma Inv2_Inv c s : Inv2 c s -> c_suggest c = true -> Inv true s.
Proof. intros (A1 & A2 & A3) Hs. split; [exact A1 | split; [exact A2 | apply I3_weaken, A3, Hs]]. Qed.

Lemma good_new c uac sels : Good c (p_new uac sels).
Proof. apply good_idle; [reflexivity | discriminate | discriminate]. Qed.

Lemma good_memo {c s} : Good c s -> I1 (p_uac s) (p_memo s) /\ I2 (p_memo s).
Proof. intros ((A1 & A2 & _) & _). split; assumption. Qed.

Lemma R_idle {c c' s1 s2 l} : R c s1 s2 -> R c' (idle s1 l) (idle s2 l).
Proof.
  intros ((_ & Eu & _) & G1 & G2). destruct (good_memo G1) as [A1 A2], (good_memo G2) as [B1 B2].
  split; [repeat split; exact Eu|]. split; apply good_idle; try reflexivity; assumption.
Qed.

Lemma R_refl c s : Good c s -> R c s s.
Proof. intros G. split; [repeat split | split; exact G]. Qed.

Lemma R_buf {c s1 s2} : R c s1 s2 -> p_buf s1 = p_buf s2.
Proof. intros ((Eb & _) & _). exact Eb. Qed.

Lemma R_ongoing {c s1 s2} : R c s1 s2 -> p_ongoing s1 = p_ongoing s2.
Proof. intros HR. unfold p_ongoing. rewrite (R_buf HR). reflexivity. Qed.

Lemma R_clear {c c' s1 s2} : R c s1 s2 -> R c' (set_buf s1 []) (set_buf s2 []).
Proof.
  (* [set_buf s []] is [idle s (p_sels s)], and the two states have the same learned selections *)
  intros HR. pose proof HR as ((_ & _ & El) & _). change (R c' (idle s1 (p_sels s1)) (idle s2 (p_sels s2))).
  rewrite <- El. apply (R_idle HR).
Qed.

(** re-running the suggestion on its own result changes nothing that can be observed *)
Lemma create_suggestion_Good c s : c_suggest c = true -> Inv true s -> Good c (fst (create_suggestion Q c s)).
Proof.
  intros Hs J. pose proof (create_suggestion_Inv c s Hs J) as (P1 & P2 & P3).
  split; [split; [exact P1 | split; [exact P2 | intros _; exact P3]]|]. intros _ _.
  assert (Hc : same_core s (fst (create_suggestion Q c s))) by (repeat split; symmetry; apply create_suggestion_keeps).
  apply (create_suggestion_same c s _ Hs Hc J). split; [exact P1 | split; [exact P2 | apply I3_weaken, P3]].
Qed.

Lemma R_same_view {c s1 s2} : R c s1 s2 -> p_buf s1 <> [] -> c_suggest c = true -> same_view s1 s2.
Proof.
  intros (Hc & (J1 & V1) & (J2 & V2)) Hb Hs.
  assert (Hb2 : p_buf s2 <> []) by (destruct Hc as (<- & _); exact Hb).
  destruct (create_suggestion_same c s1 s2 Hs Hc (Inv2_Inv c s1 J1 Hs) (Inv2_Inv c s2 J2 Hs)) as (_ & _ & (W1 & W2 & W3) & _).
  destruct (V1 Hb Hs) as (X1 & X2 & X3), (V2 Hb2 Hs) as (Y1 & Y2 & Y3). repeat split; congruence.
Qed.

(** Retyping: both the key and the backspace event re-create the suggestion for a text [b] all of whose proper
    prefixes are prefixes of the composition so far - which is what prefix closure needs. *)
Definition near (b buf : str) : Prop :=
  forall j, (0 < j < length b)%nat -> (j <= length buf)%nat /\ firstn j b = firstn j buf.

Lemma near_refl buf : near buf buf.
Proof. intros j Hj. split; [lia | reflexivity]. Qed.
Lemma near_snoc buf ch : near (buf ++ [ch]) buf.
Proof.
  intros j Hj. rewrite app_length in Hj. cbn in Hj. split; [lia|].
  rewrite firstn_app. replace (j - length buf)%nat with 0%nat by lia. apply app_nil_r.
Qed.
Lemma near_removelast buf : near (removelast buf) buf.
Proof. intros j Hj. rewrite removelast_length in Hj. split; [lia | apply firstn_removelast; lia]. Qed.

Lemma set_buf_same s : set_buf s (p_buf s) = s.
Proof. destruct s; reflexivity. Qed.

Definition related (c : pcfg) (r1 r2 : pstate * output) : Prop := snd r1 = snd r2 /\ R c (fst r1) (fst r2).

Lemma Inv_retype c s b : Inv2 c s -> c_suggest c = true -> near b (p_buf s) -> Inv true (set_buf s b).
Proof.
  intros (X1 & X2 & X3) Hs Nb. split; [exact X1|]. split; [exact X2|]. intros j Hj Hl. cbn [set_buf p_buf] in *.
  destruct (Nb j) as [L E]; [lia|]. rewrite E. apply (X3 Hs); assumption.
Qed.

Lemma retype_related c s1 s2 b :
  R c s1 s2 -> near b (p_buf s1) -> related c (create_suggestion Q c (set_buf s1 b)) (create_suggestion Q c (set_buf s2 b)).
Proof.
  intros ((Eb & Eu & El) & (J1 & _) & (J2 & _)) Nb.
  assert (Hc : same_core (set_buf s1 b) (set_buf s2 b)) by (repeat split; assumption).
  destruct (c_suggest c) eqn:Hs.
  - pose proof (Inv_retype c s1 b J1 Hs Nb) as K1. rewrite Eb in Nb. pose proof (Inv_retype c s2 b J2 Hs Nb) as K2.
    destruct (create_suggestion_same c _ _ Hs Hc K1 K2) as (O & C & _).
    split; [exact O|]. split; [exact C|]. split; apply create_suggestion_Good; assumption.
  - rewrite !create_suggestion_off by exact Hs. split; [reflexivity|]. split; [exact Hc|].
    destruct J1 as (A1 & A2 & _), J2 as (B1 & B2 & _). split; apply good_trivial; (congruence || assumption).
Qed.

Lemma current_related c s1 s2 : R c s1 s2 -> related c (create_suggestion Q c s1) (create_suggestion Q c s2).
Proof.
  intros HR. pose proof (retype_related c s1 s2 _ HR (near_refl (p_buf s1))) as K.
  rewrite set_buf_same, (R_buf HR), set_buf_same in K. exact K.
Qed.

Lemma bisim_key c s1 s2 k selb : R c s1 s2 -> related c (p_key Q c s1 k selb) (p_key Q c s2 k selb).
Proof.
  intros HR. pose proof (R_buf HR) as Eb. unfold related, p_key. rewrite <- Eb. destruct (keycode_to_char k) as [ch|].
  - destruct (retype_related c s1 s2 _ HR (near_snoc (p_buf s1) ch)) as (O & Rn).
    destruct (create_suggestion Q c (set_buf s1 _)), (create_suggestion Q c (set_buf s2 _)). cbn [fst snd] in *.
    subst. auto.
  - destruct (p_buf s1); [auto | apply current_related, HR].
Qed.

Lemma bisim_backspace c s1 s2 ctrl : R c s1 s2 -> related c (p_backspace Q c s1 ctrl) (p_backspace Q c s2 ctrl).
Proof.
  intros HR. pose proof (R_buf HR) as Eb. pose proof (R_clear (c' := c) HR) as Nil.
  destruct (retype_related c s1 s2 _ HR (near_removelast (p_buf s1))) as (O & Rn).
  unfold related, p_backspace. rewrite <- Eb. destruct (p_buf s1) as [|x t]; [auto|].
  destruct ctrl; [auto|]. destruct (removelast (x :: t)) as [|y r]; [auto|]. rewrite <- O.
  destruct (out_empty _); [|auto]. split; [reflexivity | apply (R_clear Rn)].
Qed.

Lemma p_commit_off c s i : c_suggest c && p_ongoing s = false -> p_commit c s i = Some (set_buf s [], false).
Proof. intros H. unfold p_commit. fold (p_ongoing s). rewrite <- andb_assoc, H, andb_false_r. reflexivity. Qed.

(** a commit on [s2] is the commit on [s1] with the resulting state replaced by [idle s2] carrying the selections
    that result learned: same panic, same word, same file flag *)
Lemma p_commit_ext c s1 s2 i :
  same_core s1 s2 -> (p_buf s1 <> [] -> c_suggest c = true -> same_view s1 s2) ->
  p_commit c s2 i = option_map (fun r => (idle s2 (p_sels (fst r)), snd r)) (p_commit c s1 i).
Proof.
  intros (Eb & _ & El) Hv. destruct (c_suggest c && p_ongoing s1) eqn:E.
  - apply andb_prop in E. destruct E as [Hs Ho].
    destruct Hv as (Sg & Af & Pv); [intros X; unfold p_ongoing in Ho; rewrite X in Ho; discriminate | exact Hs|].
    (* [s2] is [s1] with another memo and user list, which the commit only copies *)
    destruct s2 as [b2 m2 u2 l2 p2 g2 a2]. cbn [p_buf p_sels p_sugg p_affix p_prev] in *. subst.
    unfold p_commit, bare_suggestion. cbn [p_buf p_sels p_prev p_sugg p_affix].
    destruct (_ && _ && _); [destruct (nth_error _ _)|]; reflexivity.
  - rewrite (p_commit_off c s1 i E). unfold p_ongoing in E. rewrite Eb in E. rewrite (p_commit_off c s2 i E).
    cbn [option_map fst snd set_buf p_sels]. rewrite El. reflexivity.
Qed.

(** the contract of DESIGN.md section 4: update_engine only while idle *)
Definition in_contract (s : pstate) (e : pevent) : Prop :=
  match e with PUpdate _ _ => p_buf s = [] | _ => True end.

Lemma good_update c c' s reload : Good c s -> p_buf s = [] -> Good c' (p_update s reload).
Proof.
  intros G Hb. destruct (good_memo G) as [A1 A2]. destruct reload; apply good_idle; try assumption; discriminate.
Qed.

Lemma bisim_update c c' s1 s2 reload :
  R c s1 s2 -> p_buf s1 = [] -> R c' (p_update s1 reload) (p_update s2 reload).
Proof.
  intros (Hc & G1 & G2) Hb. pose proof Hc as (Eb & Eu & El).
  split; [destruct reload; [repeat split; assumption | exact Hc]|].
  split; apply (good_update c); [exact G1 | exact Hb | exact G2 | congruence].
Qed.

Lemma bisim_step c s1 s2 e :
  R c s1 s2 -> in_contract s1 e ->
  match p_step Q c s1 e, p_step Q c s2 e with
  | Some (c1, s1', o1), Some (c2, s2', o2) => c1 = c2 /\ o1 = o2 /\ R c1 s1' s2'
  | None, None => True
  | _, _ => False
  end.
Proof.
  intros HR Hin. destruct e as [k selb | ctrl | i | | c' reload]; cbn [p_step].
  - destruct (bisim_key c s1 s2 k selb HR) as (O & Rn).
    destruct (p_key Q c s1 k selb), (p_key Q c s2 k selb). auto.
  - destruct (bisim_backspace c s1 s2 ctrl HR) as (O & Rn).
    destruct (p_backspace Q c s1 ctrl), (p_backspace Q c s2 ctrl). auto.
  - rewrite (p_commit_ext c s1 s2 i (proj1 HR) (R_same_view HR)).
    destruct (p_commit c s1 i) as [[s1' w]|] eqn:E; cbn [option_map fst snd]; [|exact I].
    rewrite (p_commit_idle E). split; [reflexivity|]. split; [reflexivity|]. apply (R_idle HR).
  - split; [reflexivity|]. split; [reflexivity|]. apply (R_clear HR).
  - split; [reflexivity|]. split; [reflexivity|]. apply (bisim_update c c' s1 s2 reload HR Hin).
Qed.

(** the states reached from a new context by in-contract events (and by re-configuration while idle) *)
Inductive Reach (uac0 sels0 : list (str * str)) : pcfg -> pstate -> Prop :=
| reach_new c : Reach uac0 sels0 c (p_new uac0 sels0)
| reach_step c s e c' s' o : Reach uac0 sels0 c s -> in_contract s e -> p_step Q c s e = Some (c', s', o) -> Reach uac0 sels0 c' s'
| reach_cfg c c' s : Reach uac0 sels0 c s -> p_buf s = [] -> Reach uac0 sels0 c' s.

Lemma reach_good {uac0 sels0 c s} : Reach uac0 sels0 c s -> Good c s.
Proof.
  induction 1 as [c | c s e c' s' o Hr IH Hin Hst | c c' s Hr IH Hb].
  - apply good_new.
  - pose proof (bisim_step c s s e (R_refl c s IH) Hin) as H. rewrite Hst in H. destruct H as (_ & _ & _ & G & _). exact G.
  - destruct (good_memo IH) as [A1 A2]. apply good_idle; assumption.
Qed.

Lemma reach_R {u1 l1 u2 l2 c s1 s2} : Reach u1 l1 c s1 -> Reach u2 l2 c s2 -> same_core s1 s2 -> R c s1 s2.
Proof. intros H1 H2 Hc. split; [exact Hc | split; [exact (reach_good H1) | exact (reach_good H2)]]. Qed.

(** asked of the run from one state only: [R] carries equal text, so [in_contract] transfers to the other; after a panic
    nothing is asked *)
Fixpoint hist_ok (c : pcfg) (s : pstate) (h : list pevent) : Prop :=
  match h with
  | [] => True
  | e :: t => in_contract s e /\ match p_step Q c s e with Some (c', s', _) => hist_ok c' s' t | None => True end
  end.

Lemma bisim_run : forall h c s1 s2, R c s1 s2 -> hist_ok c s1 h ->
  match p_run Q c s1 h, p_run Q c s2 h with
  | Some (_, _, o1), Some (_, _, o2) => o1 = o2
  | None, None => True
  | _, _ => False
  end.
Proof.
  induction h as [|e t IH]; intros c s1 s2 HR Hok; cbn [p_run]; [reflexivity|].
  destruct Hok as [Hin Hrest]. pose proof (bisim_step c s1 s2 e HR Hin) as H.
  destruct (p_step Q c s1 e) as [[[c1 s1'] o1]|], (p_step Q c s2 e) as [[[c2 s2'] o2]|]; try contradiction; [|exact I].
  destruct H as (-> & -> & HR'). specialize (IH c2 s1' s2' HR' Hrest). rewrite (R_ongoing HR').
  destruct (p_run Q c2 s1' t) as [[[? ?] outs1]|], (p_run Q c2 s2' t) as [[[? ?] outs2]|]; try exact IH.
  rewrite IH. reflexivity.
Qed.

End C05.
