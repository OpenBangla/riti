(** Property C12: fixed-layout composition helpers rewrite the text exactly as documented. *)
Require Import Riti.model.Base Riti.model.Chars Riti.model.FixedCompose Riti.spec.C12_Spec Riti.spec.C13_Spec
        Riti.proofs.Base_Proof Riti.proofs.C12_Proof Riti.proofs.C13_Proof.

(** For EVERY composed text [rb] (kept reversed in the model; [rev rb] is the reading order), every key
    value [v] (any length, any code points), every waiting-sign state and every setting of the four
    helpers, with the old vowel-sign order off: the model of process_key_value produces exactly the
    text the rule table of the property assigns (spec/C12_Spec.v), and touches nothing else. *)
Theorem C12_key_follows_rule_table :
  forall (o : fopts) (rb : list N) (pend : option N) (v : str),
    o_kar_order o = false ->
    process_key_value o rb pend v = (rev (rule_table model_reph o (rev rb) v), pend).
Proof. exact pkv_is_rule_table. Qed.

(** The reph entry of the rule table is the C13 placement on every text whose hasantas follow consonants. *)
Theorem C12_reph_entry_is_C13 :
  forall p, wf_hasanta p = true -> model_reph p = reph_spec p.
Proof. exact reph_placement. Qed.

(** Backspace removes exactly the last code point. *)
Theorem C12_backspace_removes_last :
  forall s, f_pend s = None -> f_rb s <> [] ->
    f_text (fst (f_backspace false s)) = backspace_spec (f_text s).
Proof.
  intros s Hp Hne. unfold f_backspace, f_text, backspace_spec. rewrite Hp, removelast_rev.
  destruct (f_rb s); [congruence | reflexivity].
Qed.

Check (C12_key_follows_rule_table :
  forall o rb pend v, o_kar_order o = false ->
    process_key_value o rb pend v = (rev (rule_table model_reph o (rev rb) v), pend)).

(** Non-vacuity: each rule fires on a concrete text (values computed by the model). *)
Example C12_nonvacuous :
  let o := {| o_vowel := true; o_chandra := true; o_kar := true; o_old_reph := false; o_kar_order := false |} in
  rule_table model_reph o [B_R] zofola = [B_R; ZWJ; B_HASANTA; B_Z] /\
  rule_table model_reph o [B_K; B_HASANTA; B_R] zofola = [B_K; B_HASANTA; B_R; B_HASANTA; B_Z] /\
  rule_table model_reph o [] [B_AA_KAR] = [B_AA] /\
  rule_table model_reph o [B_K; B_AA_KAR] [B_I_KAR] = [B_K; B_AA_KAR; B_I] /\
  rule_table model_reph o [B_K; 40] [B_E_KAR] = [B_K; 40; B_E] /\
  rule_table model_reph o [B_K; B_CHANDRA] [B_AA_KAR] = [B_K; B_AA_KAR; B_CHANDRA] /\
  rule_table model_reph o [B_K; B_HASANTA] [B_U_KAR] = [B_K; B_U] /\
  rule_table model_reph o [B_K; B_HASANTA] [B_HASANTA] = [B_K; B_HASANTA; ZWNJ] /\
  rule_table model_reph o [B_K; B_HASANTA] [B_LENGTH_MARK] = [B_K; B_OU] /\
  rule_table model_reph o [B_K] [B_U_KAR] = [B_K; ZWNJ; B_U_KAR] /\
  rule_table model_reph o [B_K] [B_AA_KAR; B_CHANDRA] = [B_K; B_AA_KAR; B_CHANDRA] /\
  process_key_value o [B_R] None zofola = ([B_Z; B_HASANTA; ZWJ; B_R], None).
Proof. vm_compute. repeat split. Qed.

Print Assumptions C12_key_follows_rule_table.
Print Assumptions C12_reph_entry_is_C13.
Print Assumptions C12_backspace_removes_last.
