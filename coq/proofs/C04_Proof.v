(** A key of a fixed layout, all helpers off (C04): the value is appended verbatim; number-pad keys need their option. *)
Require Import Riti.model.Base Riti.model.Chars Riti.model.FixedCompose Riti.model.Layout Riti.gen.Gen_Tables
        Riti.proofs.Base_Proof Riti.proofs.TablesAgree Riti.spec.C04_Spec Riti.spec.C12_Spec Riti.proofs.C12_Proof.

Lemma layout_value_nonempty L id v : layout_value L id = Some v -> v <> [].
Proof.
  unfold layout_value. destruct (assocN id L) as [[|c t]|]; intros H; inversion H; discriminate.
Qed.

Lemma rule_table_verbatim f rb v : plain_position rb v = true -> rule_table f helpers_off (rev rb) v = rev rb ++ v.
Proof.
  intros Hp. unfold rule_table, sign_rule, lastc, plain_position in *.
  rewrite removelast_rev, !last_rev_hd, <- nth1_hd_tl. cbn [o_old_reph o_vowel o_chandra o_kar helpers_off andb].
  destruct (str_eqb v zofola).
  - apply negb_true_iff in Hp. rewrite Hp. reflexivity.
  - rewrite andb_false_r. destruct v as [|c rest]; [symmetry; apply app_nil_r|].
    destruct (hd 0 rb =? B_HASANTA).
    + (* the text ends in a hasanta: by Hp the value is none of those that join with it *)
      destruct (is_kar c || (c =? B_HASANTA) || (c =? B_LENGTH_MARK)) eqn:K; [discriminate|].
      apply orb_false_elim in K. destruct K as [K Hl]. apply orb_false_elim in K. destruct K as [Hk Hh].
      rewrite Hk, Hh, Hl. reflexivity.
    + rewrite !andb_false_r. destruct (is_kar c); [rewrite <- app_assoc|]; reflexivity.
Qed.

Lemma pkv_verbatim rb v :
  plain_position rb v = true -> process_key_value helpers_off rb None v = (rev v ++ rb, None).
Proof.
  intros Hp. rewrite pkv_is_rule_table, (rule_table_verbatim _ rb v Hp), rev_app_distr, rev_involutive; reflexivity.
Qed.

Lemma expected_is_model L k m numpad :
  expected_value L k m numpad = get_char_for_key L k (altgr_of m) numpad.
Proof.
  unfold get_char_for_key, layout_lookup. rewrite lookups_agree. reflexivity.
Qed.

(** Number-pad keys (the fifteen VC_KP_* codes that src/fixed/layout.rs sends to layout_get_value_numpad): nothing while
    the option is off, because the table has no row for them on either plane. *)
Definition numpad_keys : list N := [55;71;72;73;74;75;76;77;78;79;80;81;82;83;3637].

Lemma numpad_absent :
  forallb (fun k => forallb (fun a => match assocN (lookup_code k a false) spec_lookups with None => true | Some _ => false end)
                            [false; true]) numpad_keys = true.
Proof. vm_compute. reflexivity. Qed.

Lemma numpad_off L k m : In k numpad_keys -> expected_value L k m false = None.
Proof.
  intros Hk. pose proof numpad_absent as A. rewrite forallb_forall in A. specialize (A k Hk). rewrite forallb_forall in A.
  assert (Ha : In (N.testbit m 1) [false; true]) by (destruct (N.testbit m 1); cbn [In]; auto).
  apply A in Ha. unfold expected_value. destruct (assocN _ spec_lookups); [discriminate Ha | reflexivity].
Qed.
