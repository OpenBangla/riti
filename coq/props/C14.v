(** Property C14: old vowel-sign order typing yields the same text as Unicode-order typing. *)
Require Import Riti.model.Base Riti.model.Chars Riti.model.FixedCompose Riti.spec.C14_Spec Riti.proofs.C14_Proof.

(** For EVERY word (any number of syllables of the grammar of spec/C14_Spec.v: onsets of any depth built
    with consonant keys, the hasanta key, ro-fola and zo-fola; any vowel sign, O and AU typed as two
    halves, either spelling of AU; any other single code points between), from EVERY composed text that
    does not end in hasanta, and for EVERY setting of the other four helpers: typing the word in
    typewriter order with the option on reaches exactly the state (text and nothing waiting) reached by
    typing it in Unicode order with the option off. *)
Theorem C14_typewriter_equals_unicode :
  forall (o : fopts) (w : list syl) (rb : list N),
    forallb syl_ok w = true -> (hd 0 rb =? B_HASANTA) = false ->
    run_keys (with_order o true) {| f_rb := rb; f_pend := None |} (flat_map typewriter_keys w)
    = run_keys (with_order o false) {| f_rb := rb; f_pend := None |} (flat_map unicode_keys w).
Proof.
  intros o. induction w as [|s w IH]; intros rb Hok Hh; [reflexivity|].
  cbn [forallb flat_map] in *. apply andb_prop in Hok. destruct Hok as [Hs Hw].
  destruct (syllable_equiv o s rb Hs Hh) as (rb' & Hh' & E1 & E2).
  rewrite !run_keys_app, E1, E2. apply IH; assumption.
Qed.

Corollary C14_from_idle :
  forall (o : fopts) (w : list syl), forallb syl_ok w = true ->
    f_text (run_keys (with_order o true) f_init (flat_map typewriter_keys w))
    = f_text (run_keys (with_order o false) f_init (flat_map unicode_keys w)).
Proof. intros o w H. unfold f_init. rewrite (C14_typewriter_equals_unicode o w [] H eq_refl). reflexivity. Qed.

(** A sign waiting for its consonant is not shown, counts as an ongoing session, and is discarded by one backspace. *)
Theorem C14_waiting_sign :
  forall (o : fopts) (rb : list N) (k : N),
    o_kar_order o = true -> is_left_standing_kar k = true -> (hd 0 rb =? B_HASANTA) = false ->
    let s' := f_key o {| f_rb := rb; f_pend := None |} [k] in
    f_text s' = rev rb /\ f_ongoing s' = true /\ fst (f_backspace false s') = {| f_rb := rb; f_pend := None |}.
Proof.
  intros o rb k Ho Hk Hh. rewrite (f_key_of_pkv (pkv_capture o rb k Ho Hk Hh)).
  split; [reflexivity|]. split; [apply orb_true_r|]. destruct rb; reflexivity.
Qed.

Check (C14_typewriter_equals_unicode :
  forall o w rb, forallb syl_ok w = true -> (hd 0 rb =? B_HASANTA) = false ->
    run_keys (with_order o true) {| f_rb := rb; f_pend := None |} (flat_map typewriter_keys w)
    = run_keys (with_order o false) {| f_rb := rb; f_pend := None |} (flat_map unicode_keys w)).

(** Non-vacuity: a three-syllable word with a conjunct, ra + zo-fola under a left-standing sign, a two-part
    sign spelled with the length mark, and chandrabindu; all helpers on. *)
Example C14_nonvacuous :
  let o := {| o_vowel := true; o_chandra := true; o_kar := true; o_old_reph := true; o_kar_order := false |} in
  let w := [SOnset (OH (OC B_K) B_T) (Some B_I_KAR) false; SOnset (OZo (OC B_R)) (Some B_O_KAR) false;
            SOnset (ORo (OC B_K)) (Some B_OU_KAR) true; SOther B_CHANDRA; SOther B_A] in
  forallb syl_ok w = true /\
  flat_map typewriter_keys w = [[B_I_KAR]; [B_K]; [B_HASANTA]; [B_T]; [B_E_KAR]; [B_R]; zofola; [B_AA_KAR];
                                [B_E_KAR]; [B_K]; rofola; [B_LENGTH_MARK]; [B_CHANDRA]; [B_A]] /\
  f_text (run_keys (with_order o true) f_init (flat_map typewriter_keys w))
  = [B_K; B_HASANTA; B_T; B_I_KAR; B_R; ZWJ; B_HASANTA; B_Z; B_O_KAR; B_K; B_HASANTA; B_R; B_OU_KAR; B_CHANDRA; B_A] /\
  f_text (run_keys (with_order o false) f_init (flat_map unicode_keys w))
  = [B_K; B_HASANTA; B_T; B_I_KAR; B_R; ZWJ; B_HASANTA; B_Z; B_O_KAR; B_K; B_HASANTA; B_R; B_OU_KAR; B_CHANDRA; B_A].
Proof. vm_compute. repeat split. Qed.

Print Assumptions C14_typewriter_equals_unicode.
Print Assumptions C14_from_idle.
Print Assumptions C14_waiting_sign.
