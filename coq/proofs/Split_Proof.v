(** Facts about SplittedString::split (model/Split.v). *)
Require Import Riti.model.Base Riti.model.Chars Riti.model.Split Riti.proofs.Base_Proof.

Lemma span_app f s : fst (span f s) ++ snd (span f s) = s.
Proof.
  induction s as [|c t IH]; cbn [span]; [reflexivity|]. destruct (f c); [|reflexivity].
  destruct (span f t). cbn in *. rewrite IH. reflexivity.
Qed.

Lemma span_fst_all f s : forallb f (fst (span f s)) = true.
Proof.
  induction s as [|c t IH]; cbn [span]; [reflexivity|]. destruct (f c) eqn:E; [|reflexivity].
  destruct (span f t). cbn in *. rewrite E, IH. reflexivity.
Qed.

Lemma span_snd_hd f s : match snd (span f s) with c :: _ => f c = false | [] => True end.
Proof. induction s as [|c t IH]; cbn [span]; [exact I|]. destruct (f c) eqn:E; [|exact E]. destruct (span f t). exact IH. Qed.

Lemma span_prefix f p r : forallb f p = true -> match r with c :: _ => f c = false | [] => True end -> span f (p ++ r) = (p, r).
Proof.
  induction p as [|c t IH]; intros Hp Hr; cbn [app span forallb] in *.
  - destruct r as [|c r]; [reflexivity|]. cbn [span]. rewrite Hr. reflexivity.
  - apply andb_prop in Hp. destruct Hp as [Hc Ht]. rewrite Hc, (IH Ht Hr). reflexivity.
Qed.

(** ** the trailing scan, relative form: the number of characters up to and including the last
    committed one, 0 when none is committed *)
Fixpoint trail_from (ic : bool) (r : list N) (e : bool) : nat :=
  match r with
  | [] => O
  | c :: t =>
    if negb e && (c =? BACKTICK) then match trail_from ic t true with O => O | S k => S (S k) end
    else if ((ic || e) && (c =? COLON)) || is_meta c then S (trail_from ic t false)
    else O
  end.

Lemma trail_scan_from ic : forall r e c s,
  trail_scan ic r e c s = match trail_from ic r e with O => c | S k => (s + S k)%nat end.
Proof.
  induction r as [|x t IH]; intros e c s; cbn [trail_scan trail_from]; [reflexivity|].
  destruct (negb e && (x =? BACKTICK)).
  { rewrite IH. destruct (trail_from ic t true); [reflexivity | apply plus_n_Sm]. }
  destruct (((ic || e) && (x =? COLON)) || is_meta x); [|reflexivity].
  rewrite IH. destruct (trail_from ic t false); [symmetry; apply PeanoNat.Nat.add_1_r | apply plus_n_Sm].
Qed.

Definition trail_len (ic : bool) (r : list N) : nat := trail_from ic r false.

Lemma trail_scan_len ic r : trail_scan ic r false O O = trail_len ic r.
Proof. rewrite trail_scan_from. unfold trail_len. destruct (trail_from ic r false); reflexivity. Qed.

(** after the last committed character nothing is committed any more *)
Lemma trail_from_rest ic : forall r e k, trail_from ic r e = S k -> trail_len ic (skipn (S k) r) = O.
Proof.
  induction r as [|x t IH]; intros e k H; cbn [trail_from] in H; [discriminate|]. cbn [skipn].
  destruct (negb e && (x =? BACKTICK)).
  { destruct (trail_from ic t true) eqn:E; inversion H. eapply IH. exact E. }
  destruct (((ic || e) && (x =? COLON)) || is_meta x); inversion H.
  destruct (trail_from ic t false) eqn:E; [exact E | eapply IH; exact E].
Qed.

Lemma trail_len_rest ic r : trail_len ic (skipn (trail_len ic r) r) = O.
Proof. destruct (trail_len ic r) eqn:E; [exact E | eapply trail_from_rest; exact E]. Qed.

(** punctuation is committed whatever follows *)
Lemma trail_len_meta ic t : forall r, forallb is_meta t = true -> trail_len ic (rev t ++ r) = (length t + trail_len ic r)%nat.
Proof.
  induction t as [|x t IH]; intros r H; [reflexivity|]. cbn [forallb] in H. apply andb_prop in H. destruct H as [Hx Ht].
  cbn [rev]. rewrite <- app_assoc, (IH _ Ht). unfold trail_len. cbn [app trail_from length negb andb].
  (* the backtick is not in META *)
  destruct (N.eqb_spec x BACKTICK) as [->|_]; [discriminate Hx|]. rewrite Hx, orb_true_r. symmetry. apply plus_n_Sm.
Qed.

Lemma split_eq input ic :
  split input ic =
  let p := fst (span is_meta input) in let rest := snd (span is_meta input) in
  match rest with
  | [] => (input, [], [])
  | _ => let k := (length rest - trail_len ic (rev rest))%nat in (p, firstn k rest, skipn k rest)
  end.
Proof. unfold split. destruct (span is_meta input) as [p rest]. rewrite trail_scan_len. reflexivity. Qed.

Lemma split_concat input ic : sp_pre (split input ic) ++ sp_word (split input ic) ++ sp_trail (split input ic) = input.
Proof.
  rewrite split_eq. unfold sp_pre, sp_word, sp_trail. pose proof (span_app is_meta input) as A.
  destruct (snd (span is_meta input)); cbn [fst snd app]; [apply app_nil_r | rewrite firstn_skipn; exact A].
Qed.

Lemma split_pre_meta input ic : forallb is_meta (sp_pre (split input ic)) = true.
Proof.
  rewrite split_eq. pose proof (span_app is_meta input) as A. pose proof (span_fst_all is_meta input) as F.
  destruct (snd (span is_meta input)); unfold sp_pre; cbn [fst]; [|exact F]. rewrite app_nil_r in A. rewrite <- A. exact F.
Qed.

Lemma split_word_spec input ic :
  sp_word (split input ic) <> [] ->
  is_meta (hd 0 (sp_word (split input ic))) = false /\ trail_len ic (rev (sp_word (split input ic))) = O.
Proof.
  rewrite split_eq. pose proof (span_snd_hd is_meta input) as Hh.
  destruct (snd (span is_meta input)) as [|c rest]; unfold sp_word; cbn [fst snd]; [congruence|].
  intros Hw. split.
  - destruct (length (c :: rest) - trail_len ic (rev (c :: rest)))%nat; [contradiction Hw; reflexivity | exact Hh].
  - rewrite <- skipn_rev. apply trail_len_rest.
Qed.

Lemma split_all_meta input ic : forallb is_meta input = true -> split input ic = (input, [], []).
Proof.
  intros H. pose proof (span_prefix is_meta input [] H I) as E. rewrite app_nil_r in E.
  rewrite split_eq, E. reflexivity.
Qed.

(** punctuation, then a word as in [split_word_spec], then punctuation: these are the three parts *)
Lemma split_parts p w t ic :
  forallb is_meta p = true -> w <> [] -> is_meta (hd 0 w) = false -> trail_len ic (rev w) = O ->
  forallb is_meta t = true -> split (p ++ w ++ t) ic = (p, w, t).
Proof.
  intros Hp Hw Hh Hw0 Ht. rewrite split_eq.
  assert (E : span is_meta (p ++ w ++ t) = (p, w ++ t)).
  { apply span_prefix; [exact Hp|]. destruct w; [congruence | exact Hh]. }
  rewrite E. cbn [fst snd]. destruct (w ++ t) eqn:Ewt; [destruct w; [congruence | discriminate]|]. rewrite <- Ewt.
  (* the scan commits exactly [t], so the cut is at [length w] *)
  rewrite rev_app_distr, (trail_len_meta _ _ _ Ht), Hw0, app_length, PeanoNat.Nat.add_0_r, PeanoNat.Nat.add_sub.
  rewrite firstn_app_length, skipn_app_length. reflexivity.
Qed.

Lemma split_wrapped l w r ic :
  forallb is_meta l = true -> forallb is_meta r = true -> w <> [] ->
  is_meta (hd 0 w) = false -> is_meta (last w 0) = false -> (last w 0 =? BACKTICK) = false ->
  (ic && (last w 0 =? COLON)) = false ->
  split (l ++ w ++ r) ic = (l, w, r).
Proof.
  intros Hl Hr Hw Hh Hla Hbt Hco. apply split_parts; try assumption.
  rewrite (app_removelast_last 0 Hw), rev_unit. unfold trail_len. cbn [trail_from].
  rewrite Hbt, orb_false_r, Hco, Hla. reflexivity.
Qed.

Lemma split_word_stable input ic p :
  sp_word (split input ic) <> [] -> forallb is_meta p = true ->
  split (p ++ sp_word (split input ic)) ic = (p, sp_word (split input ic), []).
Proof.
  intros Hw Hp. destruct (split_word_spec input ic Hw) as [Hh Hw0].
  pose proof (split_parts p _ [] ic Hp Hw Hh Hw0 eq_refl) as H. rewrite app_nil_r in H. exact H.
Qed.

(** [b]: any text whose word part is that prefix ([wordlike (firstn i w)] of C05_Proof.v) *)
Lemma split_word_prefix input ic b i :
  let pre := sp_pre (split input ic) in let w := sp_word (split input ic) in
  (0 < i <= length w)%nat -> sp_word (split b ic) = firstn i w ->
  split (firstn (length pre + i) input) ic = (pre, firstn i w, []).
Proof.
  cbn zeta. intros [Hi0 Hi] Hb. pose proof (split_concat input ic) as E.
  set (pre := sp_pre (split input ic)) in *. set (w := sp_word (split input ic)) in *.
  (* input = pre ++ w ++ trailing ([pre] and [w] are folded so that the rewrite leaves them alone); cut behind pre ++ firstn i w *)
  rewrite <- E, firstn_app_2, firstn_app, (proj2 (PeanoNat.Nat.sub_0_le _ _) Hi), app_nil_r.
  rewrite <- Hb. apply split_word_stable; [|apply split_pre_meta].
  rewrite Hb. destruct i; [inversion Hi0|]. destruct w; [inversion Hi | discriminate].
Qed.
