(** Property C07: phonetic candidates are ranked best-first by a fixed, explainable order. *)
From Coq Require Import Lia Sorted.
Require Import Riti.model.Base Riti.model.Rank Riti.model.Phonetic Riti.model.TestOracle Riti.proofs.Base_Proof Riti.proofs.Rank_Proof
        Riti.proofs.Phonetic_Proof Riti.proofs.C05_Proof Riti.proofs.Lists_Proof.

(** The comparator of the code is the lexicographic order on (class, number): First < Emoji/Other < Last,
    then the number (emoji position, 10 x edit distance, Last rank) - for ALL ranks, a total preorder. *)
Theorem C07_comparator_is_key_order : forall a b, rank_le a b = true <-> key_le a b.
Proof. exact rank_le_key. Qed.

(** For EVERY oracle, option set, memo, user list, store and typed text the returned list is sorted by that key
    (strongly: every earlier element is below every later one).  With the classes of the items this gives:
    the auto-correct item (First) before everything, dictionary words (Other d) in non-decreasing edit
    distance with suffix-built words carrying the distance of their base, emoji (number >= 1) never before a
    distance-0 word, the transliteration (Last 2) after all of them, raw English (Last 3) after that. *)
Theorem C07_sorted :
  forall (Q : oracles) c m uac sels term,
    let '(_, l, _, _) := suggest Q c m uac sels term in StronglySorted key_le l.
Proof. intros. rewrite suggest_eq. apply sort_sorted. Qed.

(** Read position by position (for every strongly sorted list, hence for every returned list): dictionary words are
    in non-decreasing distance; only auto-correct items precede an auto-correct item; after the transliteration
    and the raw-text items come only such items in the order emoticon text, transliteration, raw English; an
    emoji (number >= 1) never precedes a dictionary word of distance 0. *)
Theorem C07_order_consequences :
  forall l, StronglySorted key_le l ->
    (forall i j a d1 b d2, (i < j)%nat -> nth_error l i = Some (ROther a d1) -> nth_error l j = Some (ROther b d2) -> d1 <= d2) /\
    (forall i j x s, (i < j)%nat -> nth_error l i = Some x -> nth_error l j = Some (RFirst s) -> exists s', x = RFirst s') /\
    (forall i j s r y, (i < j)%nat -> nth_error l i = Some (RLast s r) -> nth_error l j = Some y -> exists s' r', y = RLast s' r' /\ r <= r') /\
    (forall i j e r a, (i < j)%nat -> nth_error l i = Some (REmoji e r) -> nth_error l j = Some (ROther a 0) -> r = 0).
Proof.
  intros l Hs.
  assert (K : forall i j x y, (i < j)%nat -> nth_error l i = Some x -> nth_error l j = Some y -> key_le x y)
    by (intros i j x y; apply (sorted_nth key_le l i j x y Hs)).
  unfold key_le in K. repeat split.
  - intros i j a d1 b d2 Hij Hi Hj. specialize (K i j _ _ Hij Hi Hj). cbn in K. lia.
  - intros i j x s Hij Hi Hj. specialize (K i j _ _ Hij Hi Hj). destruct x; cbn in K; try lia. eauto.
  - intros i j s r y Hij Hi Hj. specialize (K i j _ _ Hij Hi Hj). destruct y; cbn in K; try lia. eexists _, _. split; [reflexivity | lia].
  - intros i j e r a Hij Hi Hj. specialize (K i j _ _ Hij Hi Hj). cbn in K. lia.
Qed.

(** suffix-built items keep class and number of their base (add_suffix only rewrites the text) *)
Theorem C07_suffix_items_inherit_rank :
  forall x s, rank_tier (set_rstr x s) = rank_tier x /\ rank_num (set_rstr x s) = rank_num x.
Proof. intros x s. destruct x; split; reflexivity. Qed.

(** stability facts used for "first" and "last": a First item at the head of the unsorted list stays the head;
    an item not below any other, pushed last, stays last *)
Theorem C07_first_stays_first : forall s t, hd (RFirst s) (sort_ranks (RFirst s :: t)) = RFirst s.
Proof. intros s t. destruct (sort_first s t) as [r ->]. reflexivity. Qed.
Theorem C07_last_stays_last : forall l x, (forall y, In y l -> rank_le y x = true) -> sort_ranks (l ++ [x]) = sort_ranks l ++ [x].
Proof. intros l x H. rewrite sort_snoc. apply insert_max. intros y Hy. apply H, sort_In, Hy. Qed.

(** no text twice among the dictionary part and the transliteration (push_checked); emoji and the two raw-text
    items are distinct from them by their script (checked on every list by the stream's judge) *)
Theorem C07_no_duplicates_dictionary_part :
  forall (Q : oracles) m uac w, NoDup (strs (swd_core Q m uac w)).
Proof. intros Q m uac w. rewrite swd_core_upd. apply push_checked_nodup, fold_push_nodup. constructor. Qed.

Theorem C07_sort_permutes : forall l x, In x (sort_ranks l) <-> In x l.
Proof. intros l x. apply sort_In. Qed.

Example C07_nonvacuous :
  let '(_, l, _, _) := suggest test_oracles cfg_all_on [] [] [] [107; 97] in
  l = [RFirst [2469]; REmoji [128512] 1; REmoji [128516] 2; ROther [2453; 2494] 20; ROther [2453; 2494; 2433] 30;
       ROther [2454; 2494] 40; RLast [2463; 2453] 2; RLast [107; 97] 3].
Proof. vm_compute. reflexivity. Qed.

Print Assumptions C07_sorted.
Print Assumptions C07_order_consequences.
Print Assumptions C07_comparator_is_key_order.
Print Assumptions C07_no_duplicates_dictionary_part.
