(** The store of learned selections (C09): a learning commit writes it, [prev_selection] finds the entry again. *)
Require Import Riti.model.Base Riti.model.Split Riti.model.Rank Riti.model.Phonetic Riti.proofs.Base_Proof
        Riti.proofs.Phonetic_Proof.

Lemma str_eqb_sym a b : str_eqb a b = str_eqb b a.
Proof.
  destruct (str_eqb a b) eqn:E.
  - apply str_eqb_eq in E. subst. symmetry. apply str_eqb_refl.
  - symmetry. apply str_eqb_neq. intros ->. rewrite str_eqb_refl in E. discriminate.
Qed.

Lemma assoc_set_lookup k v l k2 : assocS k2 (assoc_set k v l) = if str_eqb k2 k then Some v else assocS k2 l.
Proof.
  induction l as [|[k' v'] t IH]; cbn [assoc_set assocS]; [reflexivity|].
  destruct (str_eqb k k') eqn:E; cbn [assocS]; [apply str_eqb_eq in E; subst k'; destruct (str_eqb k2 k); reflexivity|].
  rewrite IH. destruct (str_eqb k2 k') eqn:E2; [|reflexivity].
  apply str_eqb_eq in E2. subst k'. rewrite str_eqb_sym, E. reflexivity.
Qed.

Section C09.
Variable Q : oracles.

Lemma bare_suggestion_wrapped s i x (b : str) :
  nth_error (p_sugg s) i = Some x -> rstr x = fst (p_affix s) ++ b ++ snd (p_affix s) -> bare_suggestion s i = Some b.
Proof. intros Hn Hx. unfold bare_suggestion. rewrite Hn, Hx, strip_prefix_app, strip_suffix_app. reflexivity. Qed.

Lemma commit_learns c s i x (b : str) :
  c_suggest c = true -> p_buf s <> [] -> p_prev s <> i ->
  nth_error (p_sugg s) i = Some x -> rstr x = fst (p_affix s) ++ b ++ snd (p_affix s) ->
  exists s', p_commit c s i = Some (s', true) /\ p_buf s' = [] /\ p_uac s' = p_uac s /\
    assocS (sp_word (split (p_buf s) false)) (p_sels s') = Some b /\
    (forall k, str_eqb k (sp_word (split (p_buf s) false)) = false -> assocS k (p_sels s') = assocS k (p_sels s)).
Proof.
  intros Hs Hb Hp Hn Hx. unfold p_commit. apply PeanoNat.Nat.eqb_neq in Hp.
  rewrite Hs, Hp, (bare_suggestion_wrapped s i x b Hn Hx). destruct (p_buf s); [congruence|].
  eexists. split; [reflexivity|]. cbn [p_buf p_uac p_sels]. repeat split.
  - rewrite assoc_set_lookup, str_eqb_refl. reflexivity.
  - intros k Hk. rewrite assoc_set_lookup, Hk. reflexivity.
Qed.

(** the preselected candidate is the text looked for - the learned text of the word, or else the one derived from a
    learned base and a known suffix - in the wrapping of the current text, whenever that text is in the list at all
    (the [match] is [selected_text] of C17_Proof.v) *)
Lemma preselected_when_offered (sels : list (str * str)) l (pre w tr : str) :
  let sel := match assocS w sels with
             | Some item => item
             | None => if Nat.leb 2 (length w) then sel_by_suffix Q sels w (seq 1 (length w - 1)) else []
             end in
  In (pre ++ sel ++ tr) (map rstr l) ->
  option_map rstr (nth_error l (prev_selection Q sels l pre w tr)) = Some (pre ++ sel ++ tr).
Proof.
  cbn zeta. intros H. unfold prev_selection. destruct (find_pos_offered _ l H) as (i & -> & Hi). exact Hi.
Qed.

Lemma learned_is_preselected (sels : list (str * str)) l (pre w tr b : str) :
  assocS w sels = Some b -> (exists x, In x l /\ rstr x = pre ++ b ++ tr) ->
  option_map rstr (nth_error l (prev_selection Q sels l pre w tr)) = Some (pre ++ b ++ tr).
Proof.
  intros Hw (x & Hin & Hx). pose proof (preselected_when_offered sels l pre w tr) as H. rewrite Hw in H.
  apply H. rewrite <- Hx. apply in_map, Hin.
Qed.

Lemma sel_by_suffix_skip (sels : list (str * str)) (w : str) skipped rest :
  (forall j, In j skipped -> suffix_of Q (skipn (length w - j) w) = None \/ assocS (firstn (length w - j) w) sels = None) ->
  sel_by_suffix Q sels w (skipped ++ rest) = sel_by_suffix Q sels w rest.
Proof.
  induction skipped as [|j t IH]; intros H; [reflexivity|]. cbn [app sel_by_suffix].
  assert (Ht : sel_by_suffix Q sels w (t ++ rest) = sel_by_suffix Q sels w rest) by (apply IH; intros k Hk; apply H; right; exact Hk).
  destruct (H j (or_introl eq_refl)) as [-> | E]; [exact Ht|]. destruct (suffix_of Q _); [rewrite E|]; exact Ht.
Qed.

(** the round trip inside one context: after the learning commit, in any list that offers the learned text for a text
    with the same word part, that text is preselected *)
Lemma learn_then_retype c s i x (b : str) s' :
  c_suggest c = true -> p_buf s <> [] -> p_prev s <> i ->
  nth_error (p_sugg s) i = Some x -> rstr x = fst (p_affix s) ++ b ++ snd (p_affix s) ->
  p_commit c s i = Some (s', true) ->
  forall l (pre tr : str), (exists y, In y l /\ rstr y = pre ++ b ++ tr) ->
    option_map rstr (nth_error l (prev_selection Q (p_sels s') l pre (sp_word (split (p_buf s) false)) tr)) = Some (pre ++ b ++ tr).
Proof.
  intros Hs Hb Hp Hn Hx Hc l pre tr Hex.
  destruct (commit_learns c s i x b Hs Hb Hp Hn Hx) as (s'' & Hc' & _ & _ & Hl & _).
  rewrite Hc in Hc'. injection Hc' as <-. apply learned_is_preselected; assumption.
Qed.

End C09.
