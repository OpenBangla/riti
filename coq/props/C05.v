(** Property C05: suggestions depend only on the surviving typed text, not on typing history. *)
Require Import Riti.model.Base Riti.model.Phonetic Riti.model.TestOracle Riti.proofs.C05_Proof.

(** [Reach Q uac sels c s]: the context state [s] (with current configuration [c]) was reached from a
    new context over the user list [uac] and the learned selections [sels] by ANY finite history of key
    presses (any key, any selection byte), backspaces, commits, finish requests and - while idle -
    re-configurations with or without a reload of the user list.

    For EVERY oracle (transliteration, dictionary, suffix and emoji tables), every two reachable states -
    of the same context at different times or of different contexts, with whatever other words composed
    before (warm memo) - that agree on the surviving text, the user list and the learned selections:
    every continuation history produces the same outputs (candidates, order, preselection, auxiliary
    text, session flag) in both. *)
Theorem C05_history_independence :
  forall (Q : oracles) uac1 sels1 uac2 sels2 (c : pcfg) (s1 s2 : pstate),
    Reach Q uac1 sels1 c s1 -> Reach Q uac2 sels2 c s2 ->
    p_buf s1 = p_buf s2 -> p_uac s1 = p_uac s2 -> p_sels s1 = p_sels s2 ->
    forall h, hist_ok Q c s1 h ->
      match p_run Q c s1 h, p_run Q c s2 h with
      | Some (_, _, o1), Some (_, _, o2) => o1 = o2
      | None, None => True
      | _, _ => False
      end.
Proof.
  intros Q uac1 sels1 uac2 sels2 c s1 s2 R1 R2 Eb Eu El h Hok.
  apply bisim_run; [|exact Hok]. apply (reach_R Q R1 R2). repeat split; assumption.
Qed.

(** In particular the suggestion for the current composition, and the list / preselection a commit would
    use, are the same in any two such states. *)
Theorem C05_current_suggestion :
  forall (Q : oracles) uac1 sels1 uac2 sels2 (c : pcfg) (s1 s2 : pstate),
    Reach Q uac1 sels1 c s1 -> Reach Q uac2 sels2 c s2 ->
    p_buf s1 = p_buf s2 -> p_uac s1 = p_uac s2 -> p_sels s1 = p_sels s2 -> c_suggest c = true ->
    snd (create_suggestion Q c s1) = snd (create_suggestion Q c s2) /\
    (p_buf s1 <> [] -> same_view s1 s2).
Proof.
  intros Q uac1 sels1 uac2 sels2 c s1 s2 R1 R2 Eb Eu El Hs.
  assert (HR : R Q c s1 s2) by (apply (reach_R Q R1 R2); repeat split; assumption).
  split; [apply (current_related Q c s1 s2 HR) | intros Hb; apply (R_same_view Q HR Hb Hs)].
Qed.

(** The memo is transparent: in every reachable state each entry is the pure function [direct] of its key. *)
Theorem C05_memo_transparent :
  forall (Q : oracles) uac sels c s, Reach Q uac sels c s ->
    forall k v, assocS k (p_memo s) = Some v -> v = direct Q (p_uac s) k.
Proof. intros Q uac sels c s Hr. apply (good_memo Q (reach_good Q Hr)). Qed.

(** Non-vacuity: a warm context (another word composed before, a detour removed by backspace) and a new
    one, both with "kar" surviving: same suggestion; the premises hold for both. *)
Example C05_nonvacuous :
  let Q := test_oracles in let c := cfg_all_on in
  let run h := match p_run Q c (p_new [] []) h with Some (_, s, outs) => Some (p_buf s, last outs (OUnit, false)) | None => None end in
  run [PKey 41120 0; PKey 41110 0; PFinish; PKey 41120 0; PKey 41110 0; PKey 41121 0; PBackspace false; PKey 41127 0]
  = run [PKey 41120 0; PKey 41110 0; PKey 41127 0] /\
  (exists o, run [PKey 41120 0; PKey 41110 0; PKey 41127 0] = Some ([107; 97; 114], (OFull [107; 97; 114] o 0 false, true)) /\ (2 <= length o)%nat).
Proof. vm_compute. split; [reflexivity|]. eexists. split; [reflexivity|]. repeat constructor. Qed.

Print Assumptions C05_history_independence.
Print Assumptions C05_current_suggestion.
Print Assumptions C05_memo_transparent.
