(** The tables obtained by executing the code agree with the specification tables derived from
    riti.h / the transcribed character classes.  The lemmas about generated tables are re-checked
    on every run against freshly generated ones. *)
From Coq Require Import Lia.
Require Import Riti.model.Base Riti.model.Chars Riti.model.Layout Riti.gen.Gen_Tables Riti.proofs.Base_Proof.

Lemma lookups_agree : gen_lookups = spec_lookups.
Proof. reflexivity. Qed.

Lemma keychar_agree : gen_keychar = spec_keychar.
Proof. reflexivity. Qed.

Lemma vowels_agree : gen_is_vowel = vowels.
Proof. reflexivity. Qed.
Lemma kars_agree : gen_is_kar = kars.
Proof. reflexivity. Qed.
Lemma pure_consonants_agree : gen_is_pure_consonant = pure_consonants.
Proof. reflexivity. Qed.
Lemma ligature_kars_agree : gen_is_ligature_making_kar = ligature_making_kars.
Proof. reflexivity. Qed.

Lemma range_pos_spec : forall p lo x, In x (range_pos lo p) <-> lo <= x < lo + Npos p.
Proof.
  induction p as [p IH|p IH|]; intros lo x; cbn [range_pos In]; rewrite ?in_app_iff, ?IH; lia.
Qed.

Lemma rangeN_spec : forall n lo x, In x (rangeN lo n) <-> lo <= x < lo + n.
Proof.
  intros [|p] lo x; cbn [rangeN]; [cbn [In]; lia | apply range_pos_spec].
Qed.

(** get_modifiers depends on bits 0 and 1 only, for all 256 modifier bytes: the generated tables are the
    sweep of the bytes in order, kept where the bit is set. *)
Lemma mod_altgr_agree : gen_mod_altgr = filter altgr_of (rangeN 0 256).
Proof. reflexivity. Qed.
Lemma mod_shift_agree : gen_mod_shift = filter shift_of (rangeN 0 256).
Proof. reflexivity. Qed.

Lemma altgr_agree : forall m, m < 256 -> mem m gen_mod_altgr = altgr_of m /\ mem m gen_mod_shift = shift_of m.
Proof.
  intros m Hm. rewrite mod_altgr_agree, mod_shift_agree. split; apply mem_filter, rangeN_spec; lia.
Qed.

Lemma modifiers_agree :
  forallb (fun m => Bool.eqb (mem m gen_mod_altgr) (altgr_of m) && Bool.eqb (mem m gen_mod_shift) (shift_of m))
          (rangeN 0 256) = true.
Proof.
  apply forallb_forall. intros m Hm. apply rangeN_spec in Hm. destruct (altgr_agree m) as [-> ->]; [lia|].
  rewrite !eqb_reflx. reflexivity.
Qed.
