(** Emoji keep their table order in the sorted list (C18). *)
From Coq Require Import Lia Sorted.
Require Import Riti.model.Base Riti.model.Rank Riti.model.Phonetic Riti.proofs.Base_Proof Riti.proofs.Rank_Proof
        Riti.proofs.Phonetic_Proof Riti.proofs.Lists_Proof.

Lemma filter_app_none {A} (f : A -> bool) l r : filter f l = [] -> filter f (l ++ r) = filter f r.
Proof. intros H. rewrite filter_app, H. reflexivity. Qed.

Lemma emoji_ranked_above pre tr es : forall r k s, k <= r -> Forall (key_le (REmoji s k)) (emoji_ranked pre tr es r).
Proof. induction es as [|e t IH]; intros r k s H; cbn [emoji_ranked]; constructor; [right; cbn; lia | apply IH; lia]. Qed.

Lemma emoji_ranked_sorted pre tr es : forall r, StronglySorted key_le (emoji_ranked pre tr es r).
Proof. induction es as [|e t IH]; intros r; cbn [emoji_ranked]; constructor; [apply IH | apply emoji_ranked_above; lia]. Qed.

(** the emoji of a name appear in the returned list exactly in table order, whatever else is in the list *)
Lemma emoji_in_table_order l0 pre tr es r tail :
  filter is_emoji l0 = [] -> filter is_emoji tail = [] ->
  filter is_emoji (sort_ranks (l0 ++ emoji_ranked pre tr es r ++ tail)) = emoji_ranked pre tr es r.
Proof.
  intros H0 Ht. rewrite filter_sort, !filter_app, H0, Ht, app_nil_r, filter_all.
  - apply sort_sorted_id, emoji_ranked_sorted.
  - intros x Hx. apply emoji_ranked_inv in Hx. destruct Hx as (s & n & ->). reflexivity.
Qed.
