(** Property C08: dictionary-derived candidates are justified, and suffix forms are complete. *)
From Coq Require Import Lia.
Require Import Riti.model.Base Riti.model.Chars Riti.model.Rank Riti.model.Phonetic Riti.model.TestOracle
        Riti.proofs.Rank_Proof Riti.proofs.Phonetic_Proof Riti.proofs.C05_Proof Riti.proofs.Lists_Proof.

(** Soundness, for EVERY oracle, option set, typed text, store and every memo that is transparent (which every
    reachable memo is: C05_memo_transparent): each candidate is the transliteration, an emoji / emoticon literal /
    raw English item ([plain x = false]), a direct candidate of the typed word (auto-correct entry or a dictionary
    word matching its pattern: the elements of [direct]), or a direct candidate of a proper non-empty prefix joined
    to the Bengali form of the remaining known suffix - each wrapped in the surrounding punctuation. *)
Theorem C08_candidates_justified :
  forall (Q : oracles) c m uac sels term, I1 Q uac m ->
    let '(_, l, _, _) := suggest Q c m uac sels term in Forall (justified Q c uac term) l.
Proof.
  intros Q c m uac sels term H1. rewrite suggest_eq. apply Forall_forall. intros x Hx. apply sort_In, sg_l2_inv in Hx.
  destruct Hx as [Hx|Hx]; [|apply j_extra, Hx]. rewrite sg_l0_eq in Hx. apply in_map_iff in Hx. destruct Hx as (y & <- & Hy).
  destruct (swd_core_items Q m uac _ y H1 Hy) as [|b Hb|i b suf Hi Es Hb].
  - apply j_translit. apply rstr_wrap.
  - apply (j_direct Q c uac term b); [exact Hb | apply rstr_wrap].
  - apply (j_suffix Q c uac term i b suf); [exact Hi | exact Es | exact Hb |]. rewrite rstr_wrap, rstr_set_rstr. reflexivity.
Qed.

(** Completeness: a word longer than two characters = base + known suffix with the base memoised: every candidate
    stored for the base is offered in joined form.  (The base IS memoised whenever it can be a word at all:
    prefix closure, invariant I3 of C05.) *)
Theorem C08_suffix_forms_complete :
  forall (Q : oracles) c m uac sels term i suf cache b,
    let w := sg_word Q c term in
    (2 < length w)%nat -> (1 <= i < length w)%nat -> suffix_of Q (skipn i w) = Some suf ->
    assocS (firstn i w) (upd Q m uac w) = Some cache -> In b cache ->
    let '(_, l, _, _) := suggest Q c m uac sels term in
    In (sg_pre Q c term ++ join (rstr b) suf ++ sg_tr Q c term) (map rstr l).
Proof.
  cbn zeta. intros Q c m uac sels term i suf cache b Hlen Hi Es Ec Hb.
  rewrite suggest_eq. apply sort_strs_In, (incl_map rstr (sg_l0_incl Q c m uac term)). rewrite sg_l0_eq, wrap_strs.
  apply (in_map (fun s => _ ++ s ++ _)). rewrite <- (rstr_set_rstr b (join (rstr b) suf)). apply swd_core_has.
  unfold add_suffix. apply in_or_app. right. apply PeanoNat.Nat.ltb_lt in Hlen. rewrite Hlen.
  apply in_flat_map. exists i. split; [apply in_seq; lia|]. unfold suffix_items. rewrite Es, Ec.
  apply (in_map (fun b0 => set_rstr b0 (join (rstr b0) suf))), Hb.
Qed.

Theorem C08_join_vowel_sign : forall base suf, is_vowel (last base 0) = true -> is_kar (hd 0 suf) = true -> join base suf = base ++ [B_YY] ++ suf.
Proof. intros base suf A B. unfold join. rewrite A, B. reflexivity. Qed.
Theorem C08_join_khanda_ta : forall base suf, (is_vowel (last base 0) && is_kar (hd 0 suf)) = false -> last base 0 = B_KHANDA -> join base suf = removelast base ++ [B_TA] ++ suf.
Proof. intros base suf A B. unfold join. rewrite A, B. reflexivity. Qed.
Theorem C08_join_anusvara : forall base suf, (is_vowel (last base 0) && is_kar (hd 0 suf)) = false -> last base 0 = B_ANUSVARA -> join base suf = removelast base ++ [B_NGA'] ++ suf.
Proof. intros base suf A B. unfold join. rewrite A, B. reflexivity. Qed.
Theorem C08_join_otherwise : forall base suf, (is_vowel (last base 0) && is_kar (hd 0 suf)) = false -> last base 0 <> B_KHANDA -> last base 0 <> B_ANUSVARA -> join base suf = base ++ suf.
Proof. intros base suf A B C. unfold join. apply N.eqb_neq in B, C. rewrite A, B, C. reflexivity. Qed.

(** Non-vacuity: after k, a, r (keys 41120, 41110, 41127) the first candidate of the base "ka" joined to the suffix "r" is offered;
    a join after a vowel. *)
Example C08_nonvacuous :
  let Q := test_oracles in
  match p_run Q cfg_all_on (p_new [] []) [PKey 41120 0; PKey 41110 0; PKey 41127 0] with
  | Some (_, s, outs) => In [2469; 2480] (match last outs (OUnit, false) with (OFull _ l _ _, _) => l | _ => [] end)
                         /\ join [2453; 2494] [0x9C7] = [2453; 2494; 0x9DF; 0x9C7]
  | None => False
  end.
Proof. vm_compute. split; [left; reflexivity | reflexivity]. Qed.

Print Assumptions C08_candidates_justified.
Print Assumptions C08_suffix_forms_complete.
