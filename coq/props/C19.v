(** Property C19: the C interface hands out valid, independently owned, leak-free objects (protocol part). *)
From Coq Require Import Lia.
Require Import Riti.model.Base Riti.model.Phonetic Riti.model.Ffi Riti.gen.Gen_Tables Riti.proofs.C19_Proof.

(** The handle automaton: handles are unique and fresh for ever ([wf] is an invariant of every call). *)
Theorem C19_handles_unique : forall st c st', wf st -> ffi_step st c = Some st' -> wf st'.
Proof.
  intros st c st' [Hn Hb] Hs.
  destruct (ffi_step_view Hs) as [v | h v _ | | h]; [| |split; assumption..].
  - (* the new handle, [next st], is above every live one *)
    rewrite Forall_forall in Hb. unfold wf, ids. cbn [alloc live next map fst]. split.
    + constructor; [|exact Hn]. intros X. apply Hb in X. lia.
    + constructor; [lia|]. apply Forall_forall. intros a Ha. apply Hb in Ha. lia.
  - split; [apply remove_ids_nodup; exact Hn|].
    rewrite Forall_forall in *. intros x Hx. apply Hb, (remove_ids_incl h _ _ Hx).
Qed.

(** Independence: a live handle keeps the value captured at its creation whatever is called on any other handle -
    later events on the context, freeing the context, other read-outs - until it is freed itself. *)
Theorem C19_value_stable :
  forall st c st' h v, wf st -> lookup h (live st) = Some v -> c <> CFree h -> ffi_step st c = Some st' -> lookup h (live st') = Some v.
Proof.
  intros st c st' h v [_ Hb] Hl Hc Hs. destruct (ffi_step_view Hs) as [w | k u _ | | k]; try exact Hl.
  - (* the handle given out is [next st], above every live one *)
    assert (Hlt : (h < next st)%nat).
    { rewrite Forall_forall in Hb. apply Hb, (in_map fst _ (h, v)), lookup_In, Hl. }
    apply PeanoNat.Nat.lt_neq, PeanoNat.Nat.eqb_neq in Hlt. cbn [alloc live lookup]. rewrite Hlt. exact Hl.
  - cbn [live]. rewrite lookup_remove_other; [exact Hl|]. intros ->. apply Hc. reflexivity.
Qed.

(** Freeing a null string is a no-op. *)
Theorem C19_free_null_is_noop : forall st, ffi_step st CFreeNullString = Some st.
Proof. reflexivity. Qed.

(** Balance: live handles = allocations - frees after ANY accepted call sequence; a life cycle that frees what it
    created leaves nothing behind. *)
Theorem C19_balance :
  forall cs st st', wf st -> ffi_run st cs = Some st' -> (length (live st') + frees cs = length (live st) + news cs)%nat.
Proof. intros cs st st' _. apply ffi_run_balance. Qed.
Theorem C19_full_cycle_leaks_nothing : forall cs st', ffi_run ffi_init cs = Some st' -> news cs = frees cs -> live st' = [].
Proof.
  intros cs st' Hr He. apply length_zero_iff_nil. apply ffi_run_balance in Hr. cbn [ffi_init live length] in Hr. lia.
Qed.

(** A string read-out is a function of the captured value alone (table [readout]); the bytes are its UTF-8 encoding
    plus NUL.  Memory behaviour itself (validity of the pointers, no leak inside riti) is OBSERVED by stream c19
    (byte-wise comparison with the Rust API value, counting allocator) - no Gallina model can exhibit it. *)

(** No interior NUL can reach a returned string from riti's own tables (what makes CString::from_vec_unchecked sound):
    every character a key types and every code point of the two layout files is non-zero (tables generated by
    executing the code / read from the files on every run). *)
Theorem C19_tables_are_nul_free :
  forallb (fun kc => negb (snd kc =? 0)) gen_keychar = true /\
  forallb (fun e => forallb (fun ch => negb (ch =? 0)) (snd e)) layout_probhat = true /\
  forallb (fun e => forallb (fun ch => negb (ch =? 0)) (snd e)) layout_synthetic = true.
Proof. vm_compute. repeat split. Qed.

Example C19_nonvacuous :
  ffi_run ffi_init [CNew HConfig; CNew HContext; CNew (HSuggestion (OSingle [2453] false)); CFree 2; CRead 3; CNew (HString [2453]); CFree 4; CFreeNullString; CFree 3; CFree 1]
  = Some {| live := []; next := 5 |}.
Proof. vm_compute. reflexivity. Qed.

Print Assumptions C19_value_stable.
Print Assumptions C19_balance.
Print Assumptions C19_full_cycle_leaks_nothing.
