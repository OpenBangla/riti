(** Facts about the rank comparator, the stable sort, push_checked and dedup of model/Rank.v. *)
From Coq Require Import Lia Permutation Sorted.
Require Import Riti.model.Base Riti.model.Rank Riti.proofs.Base_Proof.

Lemma rstr_set_rstr x s : rstr (set_rstr x s) = s. Proof. destruct x; reflexivity. Qed.
Lemma set_rstr_same x : set_rstr x (rstr x) = x. Proof. destruct x; reflexivity. Qed.
Lemma set_rstr_twice x s s' : set_rstr (set_rstr x s) s' = set_rstr x s'. Proof. destruct x; reflexivity. Qed.
Lemma rank_le_retext a b s s' : rank_le (set_rstr a s) (set_rstr b s') = rank_le a b.
Proof. destruct a, b; reflexivity. Qed.

(** The comparator is the lexicographic comparison of a key: class (First < Emoji/Other < Last), then number. *)
Definition rank_tier (x : rank) : N := match x with RFirst _ => 0 | REmoji _ _ | ROther _ _ => 1 | RLast _ _ => 2 end.
Definition rank_num (x : rank) : N := match x with RFirst _ => 0 | REmoji _ r | ROther _ r | RLast _ r => r end.
Definition key_le (a b : rank) : Prop :=
  rank_tier a < rank_tier b \/ (rank_tier a = rank_tier b /\ rank_num a <= rank_num b).

Lemma rank_cmp_key a b :
  rank_cmp a b = match rank_tier a ?= rank_tier b with Eq => rank_num a ?= rank_num b | c => c end.
Proof. destruct a, b; reflexivity. Qed.

Lemma rank_le_key a b : rank_le a b = true <-> key_le a b.
Proof.
  unfold rank_le, key_le. rewrite rank_cmp_key. destruct (N.compare_spec (rank_tier a) (rank_tier b)) as [Ht|Ht|Ht].
  - (* what is left is [N.leb] of the numbers, unfolded *)
    fold (rank_num a <=? rank_num b). rewrite N.leb_le. lia.
  - split; [lia | reflexivity].
  - split; [discriminate | lia].
Qed.

Lemma key_le_total a b : key_le a b \/ key_le b a.
Proof. unfold key_le. lia. Qed.
Lemma key_le_trans a b c : key_le a b -> key_le b c -> key_le a c.
Proof. unfold key_le. lia. Qed.

Lemma rank_le_false a b : rank_le a b = false -> key_le b a.
Proof. intros H. destruct (key_le_total a b) as [T|T]; [apply rank_le_key in T; congruence | exact T]. Qed.

Lemma sort_snoc l x : sort_ranks (l ++ [x]) = insert_rank x (sort_ranks l).
Proof. unfold sort_ranks. rewrite fold_left_app. reflexivity. Qed.

Lemma insert_perm x l : Permutation (insert_rank x l) (x :: l).
Proof.
  induction l as [|y t IH]; cbn [insert_rank]; [reflexivity|].
  destruct (rank_le y x); [|reflexivity].
  rewrite IH. apply perm_swap.
Qed.

Lemma sort_perm l : Permutation (sort_ranks l) l.
Proof.
  induction l as [|x l IH] using rev_ind; [reflexivity|].
  rewrite sort_snoc, insert_perm, IH. apply Permutation_cons_append.
Qed.

Lemma sort_In x l : In x (sort_ranks l) <-> In x l.
Proof. split; apply Permutation_in; [apply sort_perm | symmetry; apply sort_perm]. Qed.

Lemma sort_length l : length (sort_ranks l) = length l.
Proof. apply Permutation_length, sort_perm. Qed.

Lemma sort_nonempty l : l <> [] -> sort_ranks l <> [].
Proof. intros H E. apply H, length_zero_iff_nil. rewrite <- sort_length, E. reflexivity. Qed.

Lemma sort_strs_In l s : In s (map rstr (sort_ranks l)) <-> In s (map rstr l).
Proof. split; apply Permutation_in, Permutation_map; [apply sort_perm | symmetry; apply sort_perm]. Qed.

Lemma insert_sorted x l : StronglySorted key_le l -> StronglySorted key_le (insert_rank x l).
Proof.
  induction 1 as [|y t Ht IH Hall]; cbn [insert_rank]; [repeat constructor|]. destruct (rank_le y x) eqn:E.
  - constructor; [exact IH|]. apply (Permutation_Forall (Permutation_sym (insert_perm x t))). constructor; [apply rank_le_key, E | exact Hall].
  - apply rank_le_false in E. constructor; [constructor; assumption|]. constructor; [exact E|].
    eapply Forall_impl; [|exact Hall]. intros z. apply key_le_trans, E.
Qed.

Lemma sort_sorted l : StronglySorted key_le (sort_ranks l).
Proof.
  induction l as [|x l IH] using rev_ind; [constructor|]. rewrite sort_snoc. apply insert_sorted, IH.
Qed.

(** a First item at the head stays the head: nothing compares smaller, and the sort is stable *)
Lemma sort_first s t : exists r, sort_ranks (RFirst s :: t) = RFirst s :: r.
Proof.
  induction t as [|y t [r IH]] using rev_ind; [exists []; reflexivity|].
  rewrite app_comm_cons, sort_snoc, IH. exists (insert_rank y r). destruct y; reflexivity.
Qed.

Lemma insert_max x acc : (forall y, In y acc -> rank_le y x = true) -> insert_rank x acc = acc ++ [x].
Proof.
  induction acc as [|y t IH]; intros H; cbn [insert_rank app]; [reflexivity|].
  rewrite (H y (or_introl eq_refl)), IH; [reflexivity|]. intros z Hz. apply H. right. exact Hz.
Qed.

Lemma insert_min x acc : (forall y, In y acc -> rank_le y x = false) -> insert_rank x acc = x :: acc.
Proof. destruct acc as [|y t]; intros H; cbn [insert_rank]; [|rewrite (H y (or_introl eq_refl))]; reflexivity. Qed.

Lemma sort_sorted_id l : StronglySorted key_le l -> sort_ranks l = l.
Proof.
  induction l as [|x l IH] using rev_ind; intros H; [reflexivity|]. apply sorted_snoc_inv in H. destruct H as [S1 S2].
  rewrite sort_snoc, IH by exact S1. apply insert_max. intros y Hy. rewrite Forall_forall in S2. apply rank_le_key, S2, Hy.
Qed.

Lemma filter_insert f x l :
  StronglySorted key_le l -> filter f (insert_rank x l) = if f x then insert_rank x (filter f l) else filter f l.
Proof.
  intros Hs. destruct (f x) eqn:Hx.
  - induction Hs as [|y t Ht IH Hy]; cbn [insert_rank filter]; [rewrite Hx; reflexivity|].
    destruct (rank_le y x) eqn:E.
    + cbn [filter]. destruct (f y); cbn [insert_rank]; rewrite ?E, IH; reflexivity.
    + (* [x] goes in front of [y], so in front of everything after [y], filtered or not *)
      assert (B : forall z, In z (y :: t) -> rank_le z x = false).
      { intros z [<-|Hz]; [exact E|]. rewrite Forall_forall in Hy. destruct (rank_le z x) eqn:Ez; [|reflexivity].
        apply rank_le_key in Ez. apply (key_le_trans _ _ _ (Hy z Hz)), rank_le_key in Ez. congruence. }
      change (if f y then _ else _) with (filter f (y :: t)). rewrite insert_min by (intros z Hz; apply B, (incl_filter f _ z Hz)).
      cbn [filter]. rewrite Hx. reflexivity.
  - induction Hs as [|y t Ht IH Hy]; cbn [insert_rank filter]; [rewrite Hx; reflexivity|].
    destruct (rank_le y x); cbn [filter]; [rewrite IH; reflexivity | rewrite Hx; reflexivity].
Qed.

Lemma filter_sort f l : filter f (sort_ranks l) = sort_ranks (filter f l).
Proof.
  induction l as [|x l IH] using rev_ind; [reflexivity|].
  rewrite filter_app, sort_snoc, filter_insert, IH by apply sort_sorted. cbn [filter].
  destruct (f x); [rewrite sort_snoc | rewrite app_nil_r]; reflexivity.
Qed.

Section SortRel.
Variable R : rank -> rank -> Prop.
Hypothesis R_le : forall a b a' b', R a b -> R a' b' -> rank_le a a' = rank_le b b'.

Lemma insert_Forall2 x y l l' : R x y -> Forall2 R l l' -> Forall2 R (insert_rank x l) (insert_rank y l').
Proof.
  intros Hxy F. induction F as [|a b l l' Hab F IH]; cbn [insert_rank]; [repeat constructor; exact Hxy|].
  rewrite (R_le a b x y Hab Hxy). destruct (rank_le b y); repeat constructor; assumption.
Qed.

(* both lists are consumed from the front: induction over the fold, from any related accumulators *)
Lemma fold_insert_Forall2 l l' : Forall2 R l l' -> forall acc acc', Forall2 R acc acc' ->
  Forall2 R (fold_left (fun a x => insert_rank x a) l acc) (fold_left (fun a x => insert_rank x a) l' acc').
Proof.
  induction 1 as [|x y l l' Hxy _ IH]; intros acc acc' Ha; [exact Ha | apply IH, insert_Forall2; assumption].
Qed.

Lemma sort_Forall2 l l' : Forall2 R l l' -> Forall2 R (sort_ranks l) (sort_ranks l').
Proof. intros F. apply fold_insert_Forall2; [exact F | constructor]. Qed.
End SortRel.

(* used by the statement of C07_no_duplicates_dictionary_part only; the lemmas say [map rstr] *)
Definition strs (l : list rank) : list str := map rstr l.

Lemma rank_mem_In x l : rank_mem x l = true <-> In (rstr x) (map rstr l).
Proof.
  unfold rank_mem. rewrite existsb_exists, in_map_iff.
  split; intros (y & A & B); exists y; [apply str_eqb_eq in B | apply str_eqb_eq in A]; auto.
Qed.

Lemma push_checked_app l x : push_checked l x = l ++ if rank_mem x l then [] else [x].
Proof. unfold push_checked. destruct (rank_mem x l); [symmetry; apply app_nil_r | reflexivity]. Qed.

Lemma push_if_app (b : bool) l x : (if b then push_checked l x else l) = l ++ if b && negb (rank_mem x l) then [x] else [].
Proof. rewrite push_checked_app. destruct b, (rank_mem x l); rewrite ?app_nil_r; reflexivity. Qed.

Lemma filter_push_if f (b : bool) l l' x :
  f x = true -> filter f l = l' -> rank_mem x l = rank_mem x l' -> filter f (if b then push_checked l x else l) = if b then push_checked l' x else l'.
Proof.
  intros Fx <- E. destruct b; [|reflexivity]. rewrite !push_checked_app, <- E, filter_app.
  destruct (rank_mem x l); cbn [filter]; rewrite ?Fx; reflexivity.
Qed.

Lemma push_checked_incl l x : incl l (push_checked l x).
Proof. rewrite push_checked_app. apply incl_appl, incl_refl. Qed.

Lemma push_checked_inv l x y : In y (push_checked l x) -> In y l \/ y = x.
Proof.
  rewrite push_checked_app, in_app_iff. intros [H|H]; [auto|].
  destruct (rank_mem x l); [destruct H | destruct H as [<-|[]]; auto].
Qed.

Lemma push_checked_has l x : In (rstr x) (map rstr (push_checked l x)).
Proof.
  rewrite push_checked_app, map_app, in_app_iff.
  destruct (rank_mem x l) eqn:E; [left; apply rank_mem_In, E | right; left; reflexivity].
Qed.

Lemma push_checked_nodup l x : NoDup (map rstr l) -> NoDup (map rstr (push_checked l x)).
Proof.
  intros H. rewrite push_checked_app. destruct (rank_mem x l) eqn:E; [rewrite app_nil_r; exact H|].
  rewrite map_app. apply NoDup_snoc; [exact H|]. intros Hx. apply rank_mem_In in Hx. congruence.
Qed.

Lemma dedup_from_incl : forall l p, incl (dedup_from p l) l.
Proof.
  induction l as [|z t IH]; intros p x H; cbn [dedup_from] in H; [destruct H|].
  destruct (str_eqb _ _); [right; eapply IH; exact H|]. destruct H as [<-|H]; [left; reflexivity | right; eapply IH; exact H].
Qed.

Lemma dedup_ranks_incl l : incl (dedup_ranks l) l.
Proof. destruct l as [|y t]; [apply incl_refl|]. apply incl_cons; [left; reflexivity | apply incl_tl, dedup_from_incl]. Qed.
