(** C15, "none repeats": the fixed-layout candidate list holds no text twice, PROVIDED the slice of the dictionary
    that matches the typed word has its repeats next to each other (Vec::dedup only removes neighbours) and the emoji
    of the word are not themselves candidates.  The provisos are facts about the data files; they are stated as
    hypotheses here and looked at on every list by the C15 stream (data-exhaustively in the thorough tier). *)
From Coq Require Import Permutation FinFun.
Require Import Riti.model.Base Riti.model.Chars Riti.model.Rank Riti.model.Phonetic Riti.model.FixedCompose
        Riti.model.FixedSuggest Riti.proofs.Base_Proof Riti.proofs.Rank_Proof Riti.proofs.Phonetic_Proof
        Riti.proofs.Fixed_Proof.

(** every repeat of a text sits in one block *)
Definition repeats_adjacent (l : list str) : Prop :=
  forall a x m b, l = a ++ x :: m ++ x :: b -> Forall (eq x) m.

Lemma adjacent_tail x l : repeats_adjacent (x :: l) -> repeats_adjacent l.
Proof. intros H a y m b E. apply (H (x :: a) y m b). rewrite E. reflexivity. Qed.

Lemma adjacent_twice x l : repeats_adjacent (x :: l) -> repeats_adjacent (x :: x :: l).
Proof.
  intros H a y m b E. destruct a as [|a0 a]; [|injection E as _ E; exact (H a y m b E)].
  injection E as <- E. destruct m as [|m0 m]; [constructor|]. injection E as <- E.
  constructor; [reflexivity | exact (H [] x m b (f_equal (cons x) E))].
Qed.

(** a text that comes back later is repeated at once *)
Lemma adjacent_head x y l : repeats_adjacent (x :: y :: l) -> In x (y :: l) -> x = y.
Proof.
  intros H [E|Hin]; [symmetry; exact E|]. apply in_split in Hin. destruct Hin as (m & b & ->).
  assert (F : Forall (eq x) (y :: m)) by exact (H [] x (y :: m) b eq_refl). inversion F; assumption.
Qed.

(** Vec::dedup drops a text that equals the last one kept: with the repeats adjacent nothing is left twice *)
Lemma dedup_from_nodup : forall l p, repeats_adjacent (map rstr (p :: l)) -> NoDup (map rstr (p :: dedup_from p l)).
Proof.
  induction l as [|y t IH]; intros p H; cbn [dedup_from]; [repeat constructor; intros []|]. cbn [map] in H.
  destruct (str_eqb (rstr p) (rstr y)) eqn:E.
  - apply str_eqb_eq in E. rewrite <- E in H. apply IH, (adjacent_tail (rstr p)), H.
  - constructor; [|apply IH, (adjacent_tail (rstr p)), H].
    (* [y :: dedup_from y t] is [dedup_ranks (y :: t)] *)
    intros Hin. apply (incl_map rstr (dedup_ranks_incl (y :: t))), (adjacent_head _ _ _ H) in Hin.
    rewrite Hin, str_eqb_refl in E. discriminate.
Qed.

Lemma dedup_ranks_nodup l : repeats_adjacent (map rstr l) -> NoDup (map rstr (dedup_ranks l)).
Proof. destruct l as [|x t]; [constructor | apply dedup_from_nodup]. Qed.

Section F.
Variable Q : oracles.

(** the texts the dictionary contributes for a word: the word itself, then the matching slice in table order *)
Definition slice (c : xcfg) (buffer : str) : list str :=
  ds_word c buffer :: map rstr (search_dictionary Q (ds_word c buffer) (ds_word c buffer) (o_kar (x_opts c))).

Definition wrapped (c : xcfg) (buffer : str) (s : str) : str := ds_first c buffer ++ s ++ ds_last c buffer.

(** what is assumed of the data for this composition *)
Record data_ok (c : xcfg) (buffer typed : str) : Prop := {
  ok_slice : repeats_adjacent (slice c buffer);
  ok_emoticon : forall e, emoticon Q typed = Some e -> ~ In e (map (wrapped c buffer) (slice c buffer));
  ok_names : forall es, emoji_bn Q (filter (fun ch => negb (ch =? ZWNJ)) (ds_word c buffer)) = Some es ->
               NoDup es /\ forall e, In e es -> ~ In e (slice c buffer)
}.

Lemma ds_l2_strs c buffer :
  repeats_adjacent (slice c buffer) ->
  exists ts, map rstr (ds_l2 Q c buffer) = map (wrapped c buffer) ts /\ incl ts (slice c buffer) /\ NoDup ts.
Proof.
  (* the witness is the texts of the deduplicated list; [slice] is [map rstr] of the list before deduplication *)
  intros H. eexists. split; [apply wrap_strs|]. split; [exact (incl_map rstr (dedup_ranks_incl _)) | apply dedup_ranks_nodup, H].
Qed.

Lemma wrapped_inj c buffer : Injective (wrapped c buffer).
Proof. intros a b E. apply app_inv_head, app_inv_tail in E. exact E. Qed.

Lemma ds_l3_nodup c buffer typed : data_ok c buffer typed -> NoDup (map rstr (ds_l3 Q c buffer typed)).
Proof.
  intros [Hs He Hn]. destruct (ds_l2_strs c buffer Hs) as (ts & E2 & S1 & N1).
  assert (N2 : NoDup (map rstr (ds_l2 Q c buffer))) by (rewrite E2; apply Injective_map_NoDup; [apply wrapped_inj | exact N1]).
  rewrite ds_l3_eq. destruct (x_ansi c); [exact N2|]. destruct (emoticon Q typed) as [e|].
  - rewrite map_app. apply NoDup_snoc; [exact N2|]. rewrite E2. intros Hin. apply (He e eq_refl), (incl_map _ S1), Hin.
  - destruct (emoji_bn Q _) as [es|]; [|exact N2]. destruct (Hn es eq_refl) as [Nes Des].
    (* the emoji are wrapped like the words, so it is enough to look at the bare texts *)
    rewrite map_app, emoji_ranked_strs, E2, <- map_app. apply Injective_map_NoDup; [apply wrapped_inj|].
    apply NoDup_app_disjoint; [exact N1 | exact Nes|]. intros s Hs' He'. exact (Des s He' (S1 s Hs')).
Qed.

Lemma ds_cut_nodup c buffer typed n : data_ok c buffer typed -> NoDup (map rstr (firstn n (sort_ranks (ds_l3 Q c buffer typed)))).
Proof.
  intros H. rewrite <- firstn_map. apply NoDup_firstn. eapply Permutation_NoDup; [|apply ds_l3_nodup, H].
  apply Permutation_map, Permutation_sym, sort_perm.
Qed.

End F.
