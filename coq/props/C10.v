(** Property C10: damaged or missing user files never stop the keyboard from working (logic part). *)
Require Import Riti.model.Base Riti.model.Phonetic Riti.model.Context Riti.proofs.C01_Proof
        Riti.proofs.C05_Proof.

(** Unreadable content (truncated at any byte, malformed, wrong shape: whatever the parser rejects) is treated
    exactly as an absent file, for both user files. *)
Theorem C10_unreadable_is_absent :
  forall fs, ctx_new fs = ctx_new {| f_sels := match f_sels fs with FUnreadable => FAbsent | x => x end;
                                      f_uac := match f_uac fs with FUnreadable => FAbsent | x => x end;
                                      f_dir_writable := f_dir_writable fs |}.
Proof. intros fs. unfold ctx_new. cbn. destruct (f_sels fs), (f_uac fs); reflexivity. Qed.

(** Every event is total from ANY loaded store and user list - empty keys, empty values, anything a JSON object of
    strings can hold: [C01_phonetic_step_total] has no well-formedness hypothesis on them. *)
Theorem C10_any_store_is_safe :
  forall (Q : oracles) c fs e, commit_in_range c (ctx_new fs) e -> p_step Q c (ctx_new fs) e <> None.
Proof. intros Q c fs e. apply p_step_total. Qed.
Theorem C10_new_context_is_good : forall (Q : oracles) c fs, Good Q c (ctx_new fs).
Proof. intros. apply good_new. Qed.

(** A failed save (missing / unwritable directory) is not an error and loses at most that choice: the state after the
    commit is the same as after a successful save; only the file is left as it was. *)
Theorem C10_failed_save_keeps_memory :
  forall c fs s i s1 fs1 s2 fs2,
    ctx_commit c {| f_sels := f_sels fs; f_uac := f_uac fs; f_dir_writable := true |} s i = Some (s1, fs1) ->
    ctx_commit c {| f_sels := f_sels fs; f_uac := f_uac fs; f_dir_writable := false |} s i = Some (s2, fs2) ->
    s1 = s2 /\ f_sels fs2 = f_sels fs.
Proof.
  intros c fs s i s1 fs1 s2 fs2. unfold ctx_commit.
  destruct (p_commit c s i) as [[s' [|]]|]; cbn [f_dir_writable]; [| |discriminate]; intros [= <- _] [= <- <-]; split; reflexivity.
Qed.

(** What no Gallina model can exhibit - which byte sequences serde_json rejects, what the kernel does on a failing
    write - is observed by stream c10 over every prefix of a written store and a corpus of malformed documents. *)

Example C10_nonvacuous :
  ctx_new {| f_sels := FMap [([97; 109; 105], [])]; f_uac := FUnreadable; f_dir_writable := false |} = p_new [] [([97; 109; 105], [])].
Proof. reflexivity. Qed.

Print Assumptions C10_unreadable_is_absent.
Print Assumptions C10_any_store_is_safe.
Print Assumptions C10_failed_save_keeps_memory.
