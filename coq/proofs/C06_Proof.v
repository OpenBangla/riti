(** Ending a word erases every trace of it (C06): the phonetic part on top of the bisimulation of proofs/C05_Proof.v,
    and the bisimulation [x_same] of the fixed method, which C11 uses too. *)
From Coq Require Import Lia.
Require Import Riti.model.Base Riti.model.Layout Riti.model.Phonetic Riti.model.FixedCompose
        Riti.model.FixedSuggest Riti.proofs.Base_Proof Riti.proofs.Phonetic_Proof Riti.proofs.Fixed_Proof
        Riti.proofs.C05_Proof.

Section C06.
Variable Q : oracles.

Lemma idle_is_new c s : Good Q c s -> p_buf s = [] -> p_ongoing s = false /\ R Q c s (p_new (p_uac s) (p_sels s)).
Proof.
  intros G Hb. split; [unfold p_ongoing; rewrite Hb; reflexivity|].
  split; [repeat split; exact Hb|]. split; [exact G | apply good_new].
Qed.

Definition terminating (s : pstate) (e : pevent) : Prop :=
  match e with
  | PCommit _ | PFinish => True
  | PBackspace true => p_buf s <> []
  | PBackspace false => removelast (p_buf s) = []
  | _ => False
  end.

Lemma p_backspace_shortens c s ctrl : (length (p_buf (fst (p_backspace Q c s ctrl))) <= pred (length (p_buf s)))%nat.
Proof. rewrite p_backspace_buf. destruct (_ || _); [apply le_0_n | rewrite removelast_length; apply le_n]. Qed.

Fixpoint p_backspaces (c : pcfg) (s : pstate) (ctrls : list bool) : pstate :=
  match ctrls with
  | [] => s
  | b :: t => p_backspaces c (fst (p_backspace Q c s b)) t
  end.

Definition x_same (c : xcfg) (s1 s2 : xstate) : Prop :=
  x_rb s1 = x_rb s2 /\ x_typed s1 = x_typed s2 /\ x_pend s1 = x_pend s2 /\
  (x_rb s1 <> [] -> x_suggest c = true -> x_sugg s1 = x_sugg s2).

Lemma x_same_idle c ty p g1 g2 :
  x_same c {| x_rb := []; x_typed := ty; x_pend := p; x_sugg := g1 |} {| x_rb := []; x_typed := ty; x_pend := p; x_sugg := g2 |}.
Proof. repeat split. contradiction. Qed.

Lemma x_same_ongoing c s1 s2 : x_same c s1 s2 -> x_ongoing s1 = x_ongoing s2.
Proof. intros (A & _ & B & _). unfold x_ongoing. rewrite A, B. reflexivity. Qed.

(** the stored list is the only field in which two related states may differ, and x_create overwrites it *)
Lemma x_create_same c rb ty p g1 g2 :
  let '(s1', o1) := x_create Q c {| x_rb := rb; x_typed := ty; x_pend := p; x_sugg := g1 |} in
  let '(s2', o2) := x_create Q c {| x_rb := rb; x_typed := ty; x_pend := p; x_sugg := g2 |} in
  o1 = o2 /\ x_same c s1' s2'.
Proof.
  unfold x_create, x_buffer. cbn [x_rb x_typed]. destruct (x_suggest c) eqn:Hs; repeat split.
  (* list off: the two stored lists stay as they are, and [x_same] asks for them only while the list is on *)
  intros _ X. congruence.
Qed.

Definition x_in_contract (s : xstate) (e : xevent) : Prop :=
  match e with XUpdate _ => x_rb s = [] | _ => True end.

(* [x_step] hands the two results of a key or backspace on as a triple *)
Lemma x_bisim_lift c (r1 r2 : xstate * output) :
  (let '(s1', o1) := r1 in let '(s2', o2) := r2 in o1 = o2 /\ x_same c s1' s2') ->
  let '(c1, s1', o1) := let '(s', o) := r1 in (c, s', o) in
  let '(c2, s2', o2) := let '(s', o) := r2 in (c, s', o) in
  c1 = c2 /\ o1 = o2 /\ x_same c1 s1' s2'.
Proof. destruct r1, r2. auto. Qed.

Lemma x_bisim_step L c s1 s2 e :
  x_same c s1 s2 -> x_in_contract s1 e ->
  let '(c1, s1', o1) := x_step Q L c s1 e in
  let '(c2, s2', o2) := x_step Q L c s2 e in
  c1 = c2 /\ o1 = o2 /\ x_same c1 s1' s2'.
Proof.
  intros HS Hin. destruct s1 as [rb ty p g1], s2 as [rb2 ty2 p2 g2]. pose proof HS as (E1 & E2 & E3 & E4).
  cbn [x_rb x_typed x_pend x_sugg] in E1, E2, E3, E4. subst rb2 ty2 p2.
  destruct e as [k m | ctrl | | | c']; cbn [x_step].
  - apply x_bisim_lift. unfold x_key. cbn [x_rb x_typed x_pend x_sugg]. destruct (get_char_for_key L k (altgr_of m) (x_numpad c)) as [v|].
    + destruct (process_key_value _ _ _ v) as [rb' p']. apply x_create_same.
    + split; [|exact HS]. unfold x_current, x_buffer. cbn [x_rb x_sugg].
      destruct rb; [reflexivity|]. destruct (x_suggest c); [rewrite E4 by (discriminate || reflexivity)|]; reflexivity.
  - apply x_bisim_lift. rewrite !x_backspace_eq. cbn [x_rb x_typed x_pend x_sugg].
    destruct (x_ongoing _); [|auto]. destruct (ctrl || _); [|apply x_create_same].
    split; [reflexivity | apply x_same_idle].
  - split; [reflexivity|]. split; [reflexivity | apply x_same_idle].
  - split; [reflexivity|]. split; [reflexivity | apply x_same_idle].
  - (* in contract the update comes with nothing composed, and then the stored lists do not matter *)
    cbn [x_in_contract x_rb] in Hin. subst rb. split; [reflexivity|]. split; [reflexivity | apply x_same_idle].
Qed.

Lemma x_create_not_empty c s : x_rb s <> [] -> out_empty (snd (x_create Q c s)) = false.
Proof.
  intros Hr. unfold x_create. destruct (x_suggest c); cbn [snd out_empty].
  - pose proof (ds_nonempty Q c (x_buffer s) (x_typed s)) as Hn.
    destruct (dictionary_suggestion Q c (x_buffer s) (x_typed s)); [congruence | reflexivity].
  - unfold x_buffer. destruct (x_rb s) as [|a rb]; [congruence|]. cbn [rev]. destruct (rev rb); reflexivity.
Qed.

Definition x_measure (s : xstate) : nat := (length (x_rb s) + match x_pend s with Some _ => 1 | None => 0 end)%nat.

Lemma x_create_measure c s : x_measure (fst (x_create Q c s)) = x_measure s.
Proof. unfold x_create. destruct (x_suggest c); reflexivity. Qed.

Lemma x_backspace_shortens c s ctrl : (x_measure (fst (x_backspace Q c s ctrl)) <= pred (x_measure s))%nat.
Proof.
  rewrite x_backspace_eq. destruct (x_ongoing s) eqn:E.
  - destruct (ctrl || _); [apply le_0_n|]. rewrite x_create_measure.
    unfold x_measure, x_back_rb. cbn [x_rb x_pend]. destruct (x_pend s), (x_rb s); cbn; try apply le_n. lia.
  - cbn [fst]. unfold x_measure, x_ongoing in *. destruct (x_rb s), (x_pend s); (discriminate || apply le_n).
Qed.

Fixpoint x_backspaces (c : xcfg) (s : xstate) (ctrls : list bool) : xstate :=
  match ctrls with
  | [] => s
  | b :: t => x_backspaces c (fst (x_backspace Q c s b)) t
  end.

End C06.
