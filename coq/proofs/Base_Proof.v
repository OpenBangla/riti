(** General facts about lists, and about the list functions of model/Base.v: strings, membership, association lists.
    A hypothesis about every element of a list is written [forall x, In x l -> ..] where callers hold membership
    proofs ([filter_none], [insert_max] of Rank_Proof.v), [Forall] where they hold one (sortedness). *)
From Coq Require Import Sorted.
Require Import Riti.model.Base.

Lemma firstn_incl {A} n (l : list A) : incl (firstn n l) l.
Proof. intros x H. rewrite <- (firstn_skipn n l). apply in_or_app. left. exact H. Qed.

Lemma removelast_incl {A} (l : list A) : incl (removelast l) l.
Proof. rewrite removelast_firstn_len. apply firstn_incl. Qed.

Lemma removelast_length {A} (l : list A) : length (removelast l) = pred (length l).
Proof. rewrite removelast_firstn_len, firstn_length. apply PeanoNat.Nat.min_l, PeanoNat.Nat.le_pred_l. Qed.

Lemma last_rev_hd {A} (d : A) l : last (rev l) d = hd d l.
Proof. destruct l as [|x t]; [reflexivity|]. apply last_last. Qed.

Lemma removelast_rev {A} (l : list A) : removelast (rev l) = rev (tl l).
Proof. destruct l as [|x t]; [reflexivity|]. apply removelast_last. Qed.

Lemma nth1_hd_tl {A} (d : A) l : nth 1 l d = hd d (tl l).
Proof. destruct l as [|x [|y t]]; reflexivity. Qed.

Lemma firstn_app_length {A} (a b : list A) : firstn (length a) (a ++ b) = a.
Proof. rewrite firstn_app, firstn_all, PeanoNat.Nat.sub_diag. apply app_nil_r. Qed.

Lemma skipn_app_length {A} (a b : list A) : skipn (length a) (a ++ b) = b.
Proof. rewrite skipn_app, skipn_all, PeanoNat.Nat.sub_diag. reflexivity. Qed.

Lemma map_fix {A} (g : A -> A) l : Forall (fun c => g c = c) l -> map g l = l.
Proof. induction 1 as [|c r Hc Hr IH]; cbn [map]; [reflexivity | rewrite Hc, IH; reflexivity]. Qed.

Lemma forallb_hd {A} (f : A -> bool) (d : A) l : l <> [] -> forallb f l = true -> f (hd d l) = true.
Proof. destruct l; [congruence|]. intros _ H. apply andb_prop in H. exact (proj1 H). Qed.

Lemma forallb_last {A} (f : A -> bool) (d : A) l : l <> [] -> forallb f l = true -> f (last l d) = true.
Proof.
  intros Hn H. rewrite forallb_forall in H. apply H. destruct l as [|x t]; [congruence|].
  clear. revert x. induction t as [|y t IH]; intros x; [left; reflexivity|]. right. apply IH.
Qed.

Lemma filter_none {A} (f : A -> bool) l : (forall x, In x l -> f x = false) -> filter f l = [].
Proof.
  induction l as [|x t IH]; intros H; cbn [filter]; [reflexivity|].
  rewrite (H x (or_introl eq_refl)). apply IH. intros y Hy. apply H. right. exact Hy.
Qed.

Lemma filter_all {A} (f : A -> bool) l : (forall x, In x l -> f x = true) -> filter f l = l.
Proof.
  induction l as [|x t IH]; intros H; cbn [filter]; [reflexivity|].
  rewrite (H x (or_introl eq_refl)), IH; [reflexivity|]. intros y Hy. apply H. right. exact Hy.
Qed.

Lemma Forall2_impl {A B} (R R' : A -> B -> Prop) l l' : (forall a b, R a b -> R' a b) -> Forall2 R l l' -> Forall2 R' l l'.
Proof. intros H. induction 1; constructor; auto. Qed.

Lemma Forall2_length {A B} (R : A -> B -> Prop) l l' : Forall2 R l l' -> length l = length l'.
Proof. induction 1; cbn [length]; congruence. Qed.

Lemma Forall2_firstn {A B} (R : A -> B -> Prop) n : forall l l', Forall2 R l l' -> Forall2 R (firstn n l) (firstn n l').
Proof. induction n as [|n IH]; intros l l' F; [constructor|]. destruct F; constructor; auto. Qed.

Lemma Forall2_map_l {A B} (f : B -> A) l : Forall2 (fun x y => x = f y) (map f l) l.
Proof. induction l; constructor; auto. Qed.

Lemma Forall2_eq_map {A B} (f : B -> A) a b : Forall2 (fun x y => x = f y) a b -> a = map f b.
Proof. induction 1; cbn [map]; congruence. Qed.

Lemma NoDup_app_disjoint {A} (l r : list A) : NoDup l -> NoDup r -> (forall x, In x l -> ~ In x r) -> NoDup (l ++ r).
Proof.
  intros Hl Hr D. induction Hl as [|x l Hx Hl IH]; [exact Hr|]. cbn [app]. constructor.
  - rewrite in_app_iff. intros [H|H]; [exact (Hx H) | exact (D x (or_introl eq_refl) H)].
  - apply IH. intros y Hy. apply D. right. exact Hy.
Qed.

Lemma NoDup_snoc {A} (l : list A) (x : A) : NoDup l -> ~ In x l -> NoDup (l ++ [x]).
Proof. intros Hn Hx. apply NoDup_app_disjoint; [exact Hn | repeat constructor; intros [] | intros y Hy [<-|[]]; exact (Hx Hy)]. Qed.

Lemma NoDup_firstn {A} n (l : list A) : NoDup l -> NoDup (firstn n l).
Proof.
  revert l. induction n as [|n IH]; intros l H; [constructor|]. destruct l as [|x l]; [constructor|]. inversion H; subst.
  cbn [firstn]. constructor; [|apply IH; assumption]. intros Hin. apply firstn_incl in Hin. contradiction.
Qed.

Lemma sorted_firstn {A} (R : A -> A -> Prop) n l : StronglySorted R l -> StronglySorted R (firstn n l).
Proof.
  revert l. induction n as [|n IH]; intros l H; [constructor|]. destruct l; [constructor|]. inversion H; subst.
  cbn [firstn]. constructor; [apply IH; assumption|].
  eapply incl_Forall; [apply firstn_incl | eassumption].
Qed.

Lemma sorted_snoc_inv {A} (le : A -> A -> Prop) l x : StronglySorted le (l ++ [x]) -> StronglySorted le l /\ Forall (fun y => le y x) l.
Proof.
  induction l as [|a l IH]; intros H; [split; constructor|]. inversion H as [|? ? H1 H2]; subst. destruct (IH H1) as [S1 S2].
  apply Forall_app in H2. destruct H2 as [H2 H3]. inversion H3. split; constructor; assumption.
Qed.

Lemma sorted_nth {A} (le : A -> A -> Prop) : forall l i j x y,
  StronglySorted le l -> (i < j)%nat -> nth_error l i = Some x -> nth_error l j = Some y -> le x y.
Proof.
  intros l i j x y Hs. revert i j. induction Hs as [|a t Ht IH Ha]; intros i j Hij Hi Hj; [destruct i; discriminate|].
  destruct j as [|j]; [inversion Hij|]. destruct i as [|i].
  - injection Hi as ->. rewrite Forall_forall in Ha. apply Ha. eapply nth_error_In; exact Hj.
  - apply (IH i j); [apply PeanoNat.Nat.succ_lt_mono, Hij | exact Hi | exact Hj].
Qed.

Lemma str_eqb_eq a b : str_eqb a b = true <-> a = b.
Proof.
  revert b. induction a as [|x a IH]; intros [|y b]; cbn [str_eqb]; [split; reflexivity | split; discriminate | split; discriminate |].
  rewrite andb_true_iff, N.eqb_eq, IH. split; [intros [-> ->]; reflexivity | intros H; injection H; auto].
Qed.

Lemma str_eqb_refl a : str_eqb a a = true. Proof. apply str_eqb_eq. reflexivity. Qed.

Lemma str_eqb_neq a b : a <> b -> str_eqb a b = false.
Proof. intros H. destruct (str_eqb a b) eqn:E; [apply str_eqb_eq in E; contradiction | reflexivity]. Qed.

Lemma str_eqb_wrap p t a b : str_eqb (p ++ a ++ t) (p ++ b ++ t) = str_eqb a b.
Proof.
  destruct (str_eqb a b) eqn:E; [apply str_eqb_eq in E; subst; apply str_eqb_refl|].
  apply str_eqb_neq. intros E'. apply app_inv_head, app_inv_tail in E'. subst. rewrite str_eqb_refl in E. discriminate.
Qed.

Lemma strip_prefix_app p x : strip_prefix p (p ++ x) = Some x.
Proof. induction p as [|a p IH]; cbn [app strip_prefix]; [reflexivity|]. rewrite N.eqb_refl. exact IH. Qed.

Lemma strip_suffix_app t x : strip_suffix t (x ++ t) = Some x.
Proof. unfold strip_suffix. rewrite rev_app_distr, strip_prefix_app, rev_involutive. reflexivity. Qed.

Lemma strip_prefix_is_prefix : forall p d r, strip_prefix p d = Some r -> is_prefix p d = true.
Proof.
  induction p as [|a p IH]; intros d r H; [reflexivity|]. destruct d as [|b d]; cbn [strip_prefix is_prefix] in *; [discriminate|].
  destruct (a =? b); [cbn [andb]; eapply IH; exact H | discriminate].
Qed.

Lemma mem_In c l : mem c l = true <-> In c l.
Proof.
  unfold mem. rewrite existsb_exists. split.
  - intros [x [Hin Hx]]. apply N.eqb_eq in Hx. subst. exact Hin.
  - intros H. exists c. split; [exact H | apply N.eqb_refl].
Qed.

(** what a sweep over a class table says of each member of the class *)
Lemma forallb_mem {f : N -> bool} {l c} : forallb f l = true -> mem c l = true -> f c = true.
Proof. intros F M. rewrite forallb_forall in F. apply F, mem_In, M. Qed.

Lemma forallb_mem_not (f : N -> bool) l :
  forallb (fun c => negb (f c)) l = true -> forall c, mem c l = true -> f c = false.
Proof. intros F c M. apply negb_true_iff. exact (forallb_mem F M). Qed.

Lemma mem_filter f l m : In m l -> mem m (filter f l) = f m.
Proof. intros Hm. apply eq_true_iff_eq. rewrite mem_In, filter_In. split; [intros [_ H]; exact H | auto]. Qed.

Lemma assocN_In {A k} {l : list (N * A)} {v} : assocN k l = Some v -> In (k, v) l.
Proof.
  induction l as [|[k' v'] t IH]; cbn [assocN]; [discriminate|].
  destruct (N.eqb_spec k k') as [->|]; [intros X; injection X as ->; left; reflexivity | right; auto].
Qed.

Lemma assocS_snoc {A} k (m : list (str * A)) w d :
  assocS k (m ++ [(w, d)]) = match assocS k m with Some v => Some v | None => if str_eqb k w then Some d else None end.
Proof.
  induction m as [|[k' v'] t IH]; cbn [app assocS]; [reflexivity|].
  destruct (str_eqb k k'); [reflexivity | exact IH].
Qed.
