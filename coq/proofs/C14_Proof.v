(** C14: typewriter order with the old vowel-sign order on, against Unicode order with it off.
    Under the old order a left-standing sign typed before its consonant waits in [f_pend]; the first
    consonant key puts it back on top of the text, and from then on the keys of the onset (hasanta,
    ro-fola, zo-fola, further consonants) work beneath it.  [process_key_value] is opened three times,
    for the equations [pkv_nonsign], [pkv_sign] and [pkv_zofola]; everything else rewrites with these. *)
Require Import Riti.model.Base Riti.model.Chars Riti.model.FixedCompose Riti.proofs.Base_Proof Riti.proofs.C12_Proof Riti.spec.C14_Spec.

(** A value that is neither zo-fola nor the reph and does not begin with a vowel sign: the last chain of
    tests of [pkv_gen]. *)
Lemma pkv_nonsign o rb pend c rest :
  str_eqb (c :: rest) zofola = false -> str_eqb (c :: rest) reph = false -> is_kar c = false ->
  process_key_value o rb pend (c :: rest) =
    if (c =? B_HASANTA) && (hd 0 rb =? B_HASANTA) then (push_str (ZWNJ :: rb) rest, pend)
    else if (c =? B_LENGTH_MARK) && (hd 0 rb =? B_HASANTA) then (push_str (B_OU :: tl rb) rest, pend)
    else if o_kar_order o && (c =? B_HASANTA) && is_left_standing_kar (hd 0 rb) then
      match rest with
      | [] => (c :: tl rb, Some (hd 0 rb))
      | _ => (hd 0 rb :: push_str (tl rb) (c :: rest), pend)
      end
    else if o_kar_order o && (hd 0 rb =? B_E_KAR) && (c =? B_LENGTH_MARK) then (B_OU_KAR :: tl rb, pend)
    else pkv_tail o rb pend (c :: rest).
Proof. intros Z R K. unfold process_key_value, pkv_gen. rewrite Z, R, K. reflexivity. Qed.

Lemma pkv_sign o rb k : is_kar k = true ->
  process_key_value o rb None [k] =
    if o_kar_order o && negb (hd 0 rb =? B_HASANTA) && is_left_standing_kar k then (rb, Some k)
    else if o_kar_order o && (hd 0 rb =? B_E_KAR) && ((k =? B_AA_KAR) || (k =? B_OU_KAR)) then
      ((if k =? B_AA_KAR then B_O_KAR else B_OU_KAR) :: tl rb, None)
    else (kar_chain o (hd 0 rb) rb k, None).
Proof.
  intros K. unfold process_key_value, pkv_gen. rewrite str1_zofola, str1_reph, K.
  destruct (o_kar_order o); reflexivity.
Qed.

(** zo-fola with nothing stepping aside: hasanta and ya, behind a ZWJ after a bare ra *)
Definition zo_off (rb : list N) : list N :=
  B_Z :: B_HASANTA :: (if (hd 0 rb =? B_R) && negb (nth 1 rb 0 =? B_HASANTA) then ZWJ :: rb else rb).

Lemma pkv_zofola o rb pend :
  process_key_value o rb pend zofola =
    if o_kar_order o && is_left_standing_kar (hd 0 rb) then (hd 0 rb :: zo_off (tl rb), pend) else (zo_off rb, pend).
Proof.
  (* only the first test is decided: [cbn] or a rewrite would open the other branches of [pkv_gen] too *)
  unfold process_key_value, pkv_gen, rmc_of. change (str_eqb zofola zofola) with true. cbv iota.
  destruct (o_kar_order o && is_left_standing_kar (hd 0 rb)); reflexivity.
Qed.

Lemma kar_chain_cons o x rb k : is_pure_consonant x = true ->
  kar_chain o x (x :: rb) k = if o_kar o && is_ligature_making_kar k then k :: ZWNJ :: x :: rb else k :: x :: rb.
Proof.
  intros Hx. unfold kar_chain. cbn [orb].
  rewrite (cons_not_vowel_mark x Hx), (cons_not_chandra x Hx), (cons_not_hasanta x Hx), Hx, !andb_false_r.
  destruct (o_kar o); reflexivity.
Qed.

(** What can be waiting: nothing, or a left-standing sign under the old order; and the text once it is put back. *)
Definition may_wait (o : fopts) (q : option N) : bool :=
  match q with Some k => o_kar_order o && is_left_standing_kar k | None => true end.
Definition attach (q : option N) (rb : list N) : list N :=
  match q with Some k => k :: rb | None => rb end.

Lemma pkv_other o rb q c : may_wait o q = true ->
  is_kar c = false -> (c =? B_HASANTA) = false -> (c =? B_LENGTH_MARK) = false ->
  process_key_value o rb q [c] = (attach q (c :: rb), None).
Proof.
  intros W K H L. rewrite (pkv_nonsign o rb q c [] (str1_zofola c) (str1_reph c) K), H, L, !andb_false_r.
  destruct q as [k|]; [|apply pkv_tail_none].
  apply andb_prop in W. destruct W as [Ho _]. unfold pkv_tail. cbn [last]. rewrite Ho, H. reflexivity.
Qed.

Lemma pkv_consonant o rb q c : may_wait o q = true -> is_pure_consonant c = true ->
  process_key_value o rb q [c] = (attach q (c :: rb), None).
Proof.
  intros W Hc. apply pkv_other; [exact W | apply cons_not_kar | apply cons_not_hasanta | apply cons_not_lm]; exact Hc.
Qed.

(** A value that begins with the hasanta (the hasanta key, ro-fola), typed after a consonant or after a
    left-standing sign that was put back: the sign steps aside; after a lone hasanta it waits again. *)
Lemma pkv_hasanta_first o rb q rest : str_eqb (B_HASANTA :: rest) zofola = false ->
  may_wait o q = true -> is_pure_consonant (hd 0 rb) = true ->
  process_key_value o (attach q rb) None (B_HASANTA :: rest) =
    match rest with [] => (B_HASANTA :: rb, q) | _ => (attach q (push_str rb (B_HASANTA :: rest)), None) end.
Proof.
  intros Z W Hx. rewrite (pkv_nonsign _ _ _ _ _ Z eq_refl eq_refl).
  destruct q as [k|]; cbn [may_wait attach hd tl] in *.
  - apply andb_prop in W. destruct W as [Ho Hk]. rewrite (kar_not_hasanta k (lsk_kar k Hk)), Ho, Hk. reflexivity.
  - rewrite (cons_not_hasanta _ Hx), (cons_not_lsk _ Hx), !andb_false_r, pkv_tail_none. destruct rest; reflexivity.
Qed.

Lemma pkv_zofola_after o rb q : may_wait o q = true -> is_pure_consonant (hd 0 rb) = true ->
  process_key_value o (attach q rb) None zofola = (attach q (zo_off rb), None).
Proof.
  intros W Hx. rewrite pkv_zofola. destruct q as [k|]; cbn [may_wait attach hd tl] in *.
  - rewrite W. reflexivity.
  - rewrite (cons_not_lsk _ Hx), andb_false_r. reflexivity.
Qed.

Lemma pkv_capture o rb k : o_kar_order o = true -> is_left_standing_kar k = true -> (hd 0 rb =? B_HASANTA) = false ->
  process_key_value o rb None [k] = (rb, Some k).
Proof. intros Ho Hk Hh. rewrite (pkv_sign o rb k (lsk_kar k Hk)), Ho, Hh, Hk. reflexivity. Qed.

Lemma pkv_sign_after_cons o rb k : is_pure_consonant (hd 0 rb) = true -> is_kar k = true ->
  o_kar_order o && is_left_standing_kar k = false ->
  process_key_value o rb None [k] =
    (if o_kar o && is_ligature_making_kar k then k :: ZWNJ :: rb else k :: rb, None).
Proof.
  intros Hx Hk Hl. destruct rb as [|x rb]; [discriminate Hx|].
  rewrite (pkv_sign o _ k Hk). cbn [hd].
  rewrite (cons_not_hasanta x Hx), (cons_not_e_kar x Hx), andb_true_r, Hl, andb_false_r, (kar_chain_cons o x rb k Hx).
  reflexivity.
Qed.

Lemma pkv_join_aa o rb : o_kar_order o = true ->
  process_key_value o (B_E_KAR :: rb) None [B_AA_KAR] = (B_O_KAR :: rb, None).
Proof. intros Ho. rewrite pkv_sign, Ho by reflexivity. reflexivity. Qed.
Lemma pkv_join_ou o rb : o_kar_order o = true ->
  process_key_value o (B_E_KAR :: rb) None [B_OU_KAR] = (B_OU_KAR :: rb, None).
Proof. intros Ho. rewrite pkv_sign, Ho by reflexivity. reflexivity. Qed.
Lemma pkv_join_lm o rb : o_kar_order o = true ->
  process_key_value o (B_E_KAR :: rb) None [B_LENGTH_MARK] = (B_OU_KAR :: rb, None).
Proof. intros Ho. rewrite pkv_nonsign, Ho by reflexivity. reflexivity. Qed.

Lemma run_keys_app o s k1 k2 : run_keys o s (k1 ++ k2) = run_keys o (run_keys o s k1) k2.
Proof. apply fold_left_app. Qed.

Lemma f_key_of_pkv {o rb p v rb' p'} :
  process_key_value o rb p v = (rb', p') -> f_key o {| f_rb := rb; f_pend := p |} v = {| f_rb := rb'; f_pend := p' |}.
Proof. intros H. unfold f_key. cbn [f_rb f_pend]. rewrite H. reflexivity. Qed.

Lemma run_keys_1 o s v : run_keys o s [v] = f_key o s v. Proof. reflexivity. Qed.
Lemma run_keys_2 o s v w : run_keys o s [v; w] = f_key o (f_key o s v) w. Proof. reflexivity. Qed.

(** The onset: typed with nothing waiting it yields, whatever the options, one and the same text, which
    ends in a consonant; typed while a left-standing sign waits (old order), that text and then the sign. *)
Lemma onset_run on rb : onset_ok on = true ->
  exists rb', is_pure_consonant (hd 0 rb') = true /\
    forall o q, may_wait o q = true -> run_keys o {| f_rb := rb; f_pend := q |} (onset_keys on) = {| f_rb := attach q rb'; f_pend := None |}.
Proof.
  induction on as [c | on IH c | on IH | on IH]; intros Hok; cbn [onset_ok onset_keys] in *.
  - exists (c :: rb). split; [exact Hok|]. intros o q W. apply f_key_of_pkv, pkv_consonant; assumption.
  - apply andb_prop in Hok. destruct Hok as [Hon Hc]. destruct (IH Hon) as (rb' & Hx & E).
    exists (c :: B_HASANTA :: rb'). split; [exact Hc|]. intros o q W.
    rewrite run_keys_app, (E o q W), run_keys_2, (f_key_of_pkv (pkv_hasanta_first o rb' q [] eq_refl W Hx)).
    apply f_key_of_pkv, pkv_consonant; assumption.
  - destruct (IH Hok) as (rb' & Hx & E).
    exists (B_R :: B_HASANTA :: rb'). split; [reflexivity|]. intros o q W.
    rewrite run_keys_app, (E o q W). exact (f_key_of_pkv (pkv_hasanta_first o rb' q [B_R] eq_refl W Hx)).
  - destruct (IH Hok) as (rb' & Hx & E).
    exists (zo_off rb'). split; [reflexivity|]. intros o q W.
    rewrite run_keys_app, (E o q W). apply f_key_of_pkv, pkv_zofola_after; assumption.
Qed.

(** One syllable: from any text that does not end in hasanta and with nothing waiting, typewriter order
    with the option on and Unicode order with it off reach the same state, which again does not end in
    hasanta and has nothing waiting. *)
Lemma syllable_equiv o s rb :
  syl_ok s = true -> (hd 0 rb =? B_HASANTA) = false ->
  exists rb', (hd 0 rb' =? B_HASANTA) = false /\
    run_keys (with_order o true) {| f_rb := rb; f_pend := None |} (typewriter_keys s) = {| f_rb := rb'; f_pend := None |} /\
    run_keys (with_order o false) {| f_rb := rb; f_pend := None |} (unicode_keys s) = {| f_rb := rb'; f_pend := None |}.
Proof.
  intros Hok Hh. destruct s as [on [k|] alt | c]; cbn [syl_ok typewriter_keys unicode_keys] in *.
  - apply andb_prop in Hok. destruct Hok as [Hon Hk]. destruct (onset_run on rb Hon) as (rb' & Hx & E).
    exists (if o_kar o && is_ligature_making_kar k then k :: ZWNJ :: rb' else k :: rb').
    split; [destruct (o_kar o && is_ligature_making_kar k); exact (kar_not_hasanta k Hk)|]. split.
    2: { rewrite run_keys_app, (E _ None eq_refl).
         exact (f_key_of_pkv (pkv_sign_after_cons (with_order o false) rb' k Hx Hk eq_refl)). }
    (* a left-standing sign typed first (the sign itself, or E as the first half of O and AU) waits,
       and stands after the onset *)
    assert (First : forall e, is_left_standing_kar e = true ->
      run_keys (with_order o true) (f_key (with_order o true) {| f_rb := rb; f_pend := None |} [e]) (onset_keys on)
      = {| f_rb := e :: rb'; f_pend := None |}).
    { intros e He. rewrite (f_key_of_pkv (pkv_capture (with_order o true) rb e eq_refl He Hh)).
      exact (E (with_order o true) (Some e) He). }
    destruct (is_left_standing_kar k) eqn:Hl.
    { rewrite run_keys_app, run_keys_1, (lsk_not_lig k Hl), andb_false_r. exact (First k Hl). }
    destruct (N.eqb_spec k B_O_KAR) as [->|_].
    { rewrite !run_keys_app, !run_keys_1, andb_false_r, (First B_E_KAR eq_refl).
      apply f_key_of_pkv, pkv_join_aa. reflexivity. }
    destruct (N.eqb_spec k B_OU_KAR) as [->|_].
    { rewrite !run_keys_app, !run_keys_1, andb_false_r, (First B_E_KAR eq_refl).
      destruct alt; apply f_key_of_pkv; [apply pkv_join_lm | apply pkv_join_ou]; reflexivity. }
    rewrite run_keys_app, run_keys_1, (E _ None eq_refl).
    exact (f_key_of_pkv (pkv_sign_after_cons (with_order o true) rb' k Hx Hk Hl)).
  - destruct (onset_run on rb Hok) as (rb' & Hx & E).
    exists rb'. split; [exact (cons_not_hasanta _ Hx)|]. split; exact (E _ None eq_refl).
  - apply andb_prop in Hok. destruct Hok as [Hok H3]. apply andb_prop in Hok. destruct Hok as [H1 H2].
    apply negb_true_iff in H1, H2, H3.
    exists (c :: rb). split; [exact H2|]. split; apply f_key_of_pkv, (pkv_other _ rb None); auto.
Qed.
