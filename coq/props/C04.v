(** Property C04: a fixed-layout key emits exactly the text the layout file assigns to it. *)
Require Import Riti.model.Base Riti.model.Chars Riti.model.FixedCompose Riti.model.Layout
        Riti.model.FixedLonely Riti.gen.Gen_Tables Riti.spec.C04_Spec Riti.proofs.C04_Proof.

(** For EVERY layout table [L], every key code [k] (not only the 65536 of a u16), every modifier byte
    [m], both number-pad settings and every composition state without a waiting vowel sign:
    with all helpers off the key appends exactly the text [expected_value] assigns to it (at every
    position where no unconditional joining rule of C12 applies - the empty text is one), and a key
    with an empty or missing assignment, outside the layout, or a number-pad key while the option is
    off changes nothing. *)
Theorem C04_key_emits_layout_text :
  forall (L : list (N * str)) (k m : N) (numpad : bool) (s : fstate),
    f_pend s = None ->
    match expected_value L k m numpad with
    | Some v => plain_position (f_rb s) v = true ->
                f_key_event L helpers_off numpad s k m =
                ({| f_rb := rev v ++ f_rb s; f_pend := None |}, f_text s ++ v)
    | None => f_key_event L helpers_off numpad s k m = (s, f_text s)
    end.
Proof.
  intros L k m numpad s Hp. rewrite expected_is_model. unfold f_key_event.
  destruct (get_char_for_key L k (altgr_of m) numpad) as [v|]; [|reflexivity].
  intros Hplain. unfold f_key. rewrite Hp, (pkv_verbatim _ _ Hplain).
  unfold f_text. cbn [f_rb]. rewrite rev_app_distr, rev_involutive. reflexivity.
Qed.

Theorem C04_shift_and_high_bits_irrelevant :
  forall L k m m' numpad,
    N.testbit m 1 = N.testbit m' 1 -> expected_value L k m numpad = expected_value L k m' numpad.
Proof. unfold expected_value. intros L k m m' numpad ->. reflexivity. Qed.

Theorem C04_numpad_needs_option :
  forall L, forallb (fun k => forallb (fun m => match expected_value L k m false with None => true | Some _ => false end)
                                      [0;1;2;3]) numpad_keys = true.
Proof.
  intros L. apply forallb_forall. intros k Hk. apply forallb_forall. intros m _.
  rewrite (numpad_off L k m Hk). reflexivity.
Qed.

(** Non-vacuity: in the synthetic layout, AltGr+r carries the two-code-point reph and it is appended
    to a non-empty text; the idle state satisfies the hypotheses for every value. *)
Example C04_nonvacuous :
  expected_value layout_synthetic 41127 2 false = Some [B_R; B_HASANTA] /\
  plain_position [B_K] [B_R; B_HASANTA] = true /\
  f_key_event layout_synthetic helpers_off false {| f_rb := [B_K]; f_pend := None |} 41127 2
  = ({| f_rb := [B_HASANTA; B_R; B_K]; f_pend := None |}, [B_K; B_R; B_HASANTA]) /\
  (forall v, plain_position (f_rb f_init) v = true).
Proof.
  repeat split.
  intros v. unfold plain_position. destruct (str_eqb v zofola); [reflexivity|].
  destruct v as [|c t]; [reflexivity|]. destruct (is_kar c || (c =? B_HASANTA) || (c =? B_LENGTH_MARK)); reflexivity.
Qed.

Print Assumptions C04_key_emits_layout_text.
Print Assumptions C04_shift_and_high_bits_irrelevant.
Print Assumptions C04_numpad_needs_option.
